(* Common definitions: Go-like results, Go slice expressions on lists of bytes (as N), big-endian fields, zseq;
   and the list facts the proof files share (filters, exact prefixes, nth_error, NoDup, the run invariant). *)
From Coq Require Export List NArith ZArith Bool Lia Arith.
From Coq Require Import ZifyBool ZifyNat ZifyN.
Export ListNotations.

(* Outcome of a Go function that returns (value, error) and may panic. *)
Inductive res (A : Type) : Type :=
| Ok (a : A)
| Err
| Panic.
Arguments Ok {A} a.
Arguments Err {A}.
Arguments Panic {A}.

Definition res_class {A} (r : res A) : N :=
  match r with Ok _ => 0 | Err => 1 | Panic => 2 end%N.

Definition bytes := list N.

(* data[lo:] -- panics when lo > len(data) *)
Definition slice_from (lo : nat) (data : bytes) : res bytes :=
  if Nat.ltb (length data) lo then Panic else Ok (skipn lo data).

(* data[lo:hi] -- panics when lo > hi or hi > len(data)  (cap = len in this model) *)
Definition slice (lo hi : nat) (data : bytes) : res bytes :=
  if Nat.ltb hi lo then Panic
  else if Nat.ltb (length data) hi then Panic
  else Ok (firstn (hi - lo) (skipn lo data)).

Lemma slice_from_ok lo data : lo <= length data -> slice_from lo data = Ok (skipn lo data).
Proof. intros H. unfold slice_from. destruct (Nat.ltb_spec (length data) lo); [lia|reflexivity]. Qed.

Lemma slice_ok lo hi data :
  lo <= hi -> hi <= length data -> slice lo hi data = Ok (firstn (hi - lo) (skipn lo data)).
Proof.
  intros H1 H2. unfold slice.
  destruct (Nat.ltb_spec hi lo); [lia|]. destruct (Nat.ltb_spec (length data) hi); [lia|reflexivity].
Qed.

(* data[i] *)
Definition index (i : nat) (data : bytes) : res N :=
  match nth_error data i with Some b => Ok b | None => Panic end.

Fixpoint bytes_eqb (a b : bytes) : bool :=
  match a, b with
  | [], [] => true
  | x :: a', y :: b' => N.eqb x y && bytes_eqb a' b'
  | _, _ => false
  end.

Lemma bytes_eqb_eq a b : bytes_eqb a b = true <-> a = b.
Proof.
  revert b; induction a as [|x a IH]; intros [|y b]; simpl; split; intros H;
    try reflexivity; try discriminate.
  - apply andb_true_iff in H as [H1 H2]. apply N.eqb_eq in H1. apply IH in H2. congruence.
  - inversion H; subst. rewrite N.eqb_refl. simpl. apply IH. reflexivity.
Qed.

Lemma bytes_eqb_refl a : bytes_eqb a a = true.
Proof. apply bytes_eqb_eq. reflexivity. Qed.

Lemma filter_true {A} (p : A -> bool) l : Forall (fun x => p x = true) l -> filter p l = l.
Proof. induction 1 as [|x t H _ IH]; cbn [filter]; [reflexivity|]. rewrite H, IH. reflexivity. Qed.

Lemma filter_false {A} (p : A -> bool) l : Forall (fun x => p x = false) l -> filter p l = [].
Proof. induction 1 as [|x t H _ IH]; cbn [filter]; [reflexivity|]. rewrite H. exact IH. Qed.

Lemma filter_all_true {A} (p : A -> bool) l : (forall x, In x l -> p x = true) -> filter p l = l.
Proof. intros H. apply filter_true, Forall_forall, H. Qed.

Lemma filter_and {A} (f g : A -> bool) l : filter g (filter f l) = filter (fun x => f x && g x) l.
Proof.
  induction l as [|x t IH]; [reflexivity|]. cbn [filter]. destruct (f x); cbn [andb filter]; [|exact IH].
  destruct (g x); rewrite IH; reflexivity.
Qed.

Lemma filter_absorb {A} (p q : A -> bool) l : (forall x, p x = true -> q x = true) -> filter p (filter q l) = filter p l.
Proof.
  intros H. rewrite filter_and. apply filter_ext. intros x. destruct (p x) eqn:E; [rewrite (H x E); reflexivity|apply andb_false_r].
Qed.

Lemma filter_comm {A} (p q : A -> bool) l : filter p (filter q l) = filter q (filter p l).
Proof. rewrite !filter_and. apply filter_ext. intros x. apply andb_comm. Qed.

Lemma filter_rev {A} (f : A -> bool) l : filter f (rev l) = rev (filter f l).
Proof.
  induction l as [|x t IH]; [reflexivity|]. cbn [rev filter]. rewrite filter_app, IH. cbn [filter].
  destruct (f x); cbn [rev]; [reflexivity|apply app_nil_r].
Qed.

Lemma firstn_app_exact {A} (a b : list A) : firstn (length a) (a ++ b) = a.
Proof. rewrite firstn_app, Nat.sub_diag, firstn_all, app_nil_r. reflexivity. Qed.

Lemma skipn_app_exact {A} (a b : list A) : skipn (length a) (a ++ b) = b.
Proof. rewrite skipn_app, Nat.sub_diag, skipn_all. reflexivity. Qed.

Lemma app_cons_neq {A} (p : list A) x r : r <> p ++ x :: r.
Proof. intros E. apply (f_equal (@length A)) in E. rewrite app_length in E. cbn [length] in E. lia. Qed.

Lemma existsb_eqb_in x l : existsb (N.eqb x) l = true <-> In x l.
Proof.
  rewrite existsb_exists. split; [intros (y & Hy & E); apply N.eqb_eq in E; subst; exact Hy|].
  intros H. exists x. split; [exact H|apply N.eqb_refl].
Qed.

Lemma in_filter_neqb x k l : In x (filter (fun y => negb (N.eqb y k)) l) <-> In x l /\ x <> k.
Proof. rewrite filter_In, negb_true_iff, N.eqb_neq. reflexivity. Qed.

Lemma NoDup_app_snoc {A} (l : list A) x : NoDup l -> ~ In x l -> NoDup (l ++ [x]).
Proof.
  induction 1 as [|y t Hy Ht IH]; intros Hx; cbn [app]; [constructor; [intros []|constructor]|].
  constructor.
  - intros H. apply in_app_or in H. destruct H as [H|[H|[]]]; [contradiction|]. subst. apply Hx. left. reflexivity.
  - apply IH. intros H. apply Hx. right. exact H.
Qed.

Lemma NoDup_map_filter {A B} (f : A -> B) p l : NoDup (map f l) -> NoDup (map f (filter p l)).
Proof.
  induction l as [|x r IH]; [intros _; constructor|]. cbn [map filter]. intros H. apply NoDup_cons_iff in H. destruct H as [Hx Hr].
  destruct (p x); [|exact (IH Hr)]. cbn [map]. constructor; [|exact (IH Hr)].
  intros Hin. apply Hx. apply in_map_iff in Hin. destruct Hin as (y & E & Hy). apply filter_In in Hy.
  apply in_map_iff. exists y. split; [exact E|apply Hy].
Qed.

Lemma NoDup_map_inj {A B} (f : A -> B) l a b : NoDup (map f l) -> In a l -> In b l -> f a = f b -> a = b.
Proof.
  induction l as [|x t IH]; [intros _ []|]. cbn [map]. intros Hn Ha Hb E. inversion Hn as [|? ? Hx Ht]; subst.
  destruct Ha as [->|Ha], Hb as [->|Hb]; [reflexivity| | |exact (IH Ht Ha Hb E)].
  - exfalso. apply Hx. rewrite E. apply in_map. exact Hb.
  - exfalso. apply Hx. rewrite <- E. apply in_map. exact Ha.
Qed.

Lemma nth_error_snoc {A} (l : list A) x i y : nth_error (l ++ [x]) i = Some y -> nth_error l i = Some y \/ (i = length l /\ y = x).
Proof.
  revert i. induction l as [|a t IH]; intros [|i]; cbn [app nth_error length].
  - intros [= <-]. right. split; reflexivity.
  - destruct i; discriminate.
  - intros H. left. exact H.
  - intros H. destruct (IH i H) as [H'|[-> ->]]; [left; exact H'|right; split; reflexivity].
Qed.

Lemma nth_error_firstn {A} (l : list A) : forall n i, nth_error (firstn n l) i = if i <? n then nth_error l i else None.
Proof.
  induction l as [|y t IH]; intros [|n] [|i]; cbn [firstn nth_error]; try reflexivity; [destruct (_ <? _); reflexivity|exact (IH n i)].
Qed.

Lemma nth_error_firstn_some {A} n (l : list A) i x : nth_error (firstn n l) i = Some x -> i < n /\ nth_error l i = Some x.
Proof. rewrite nth_error_firstn. destruct (Nat.ltb_spec i n) as [Hlt|_]; [intros H; split; assumption|discriminate]. Qed.

Lemma nth_error_skipn {A} k : forall (l : list A) i, nth_error (skipn k l) i = nth_error l (k + i).
Proof. induction k as [|k IH]; intros l i; [reflexivity|]. destruct l as [|x t]; [destruct i; reflexivity|]. cbn [skipn Nat.add nth_error]. apply IH. Qed.

Lemma In_firstn {A} (x : A) n l : In x (firstn n l) -> In x l.
Proof. intros H. rewrite <- (firstn_skipn n l). apply in_or_app. left. exact H. Qed.

Lemma firstn_split {A} i m (l : list A) : (i <= m)%nat -> (m <= length l)%nat ->
  firstn m l = firstn i l ++ firstn (m - i) (skipn i l).
Proof.
  intros Him Hm. rewrite <- (firstn_skipn i l) at 1. rewrite firstn_app, firstn_firstn, Nat.min_r by exact Him.
  rewrite firstn_length_le by (apply (Nat.le_trans _ m); assumption). reflexivity.
Qed.

Lemma fold_min_le {A} (f : A -> Z) l : forall acc,
  (fold_left (fun m x => Z.min m (f x)) l acc <= acc)%Z /\ forall x, In x l -> (fold_left (fun m x => Z.min m (f x)) l acc <= f x)%Z.
Proof.
  induction l as [|y l IH]; intros acc; cbn [fold_left]; [split; [apply Z.le_refl|intros x []]|]. destruct (IH (Z.min acc (f y))) as [H1 H2].
  split; [exact (Z.le_trans _ _ _ H1 (Z.le_min_l _ _))|]. intros x [<-|Hx]; [exact (Z.le_trans _ _ _ H1 (Z.le_min_r _ _))|apply H2; exact Hx].
Qed.

Lemma fold_left_inv {S L} (step : S -> L -> S) (P : S -> Prop) :
  (forall s l, P s -> P (step s l)) -> forall ls s, P s -> P (fold_left step ls s).
Proof. intros H ls. induction ls as [|l r IH]; intros s Hs; [exact Hs|]. cbn [fold_left]. apply IH, H, Hs. Qed.

Definition be_decode (l : bytes) : N := fold_left (fun acc b => acc * 256 + b)%N l 0%N.

Fixpoint be_encode (n : nat) (v : N) : bytes :=
  match n with
  | O => []
  | S n' => be_encode n' (v / 256) ++ [v mod 256]%N
  end.

Definition is_byte (b : N) : Prop := (b < 256)%N.
Definition all_bytes (l : bytes) : Prop := Forall is_byte l.

Lemma be_decode_app l b : be_decode (l ++ [b]) = (be_decode l * 256 + b)%N.
Proof. unfold be_decode. rewrite fold_left_app. reflexivity. Qed.

Lemma be_decode_encode n v : (v < 256 ^ N.of_nat n)%N -> be_decode (be_encode n v) = v.
Proof.
  revert v; induction n as [|n IH]; intros v Hv.
  - change (N.of_nat 0) with 0%N in Hv. rewrite N.pow_0_r in Hv. unfold be_decode. simpl. lia.
  - cbn [be_encode]. rewrite be_decode_app. rewrite IH.
    + pose proof (N.div_mod v 256). lia.
    + rewrite Nat2N.inj_succ, N.pow_succ_r' in Hv.
      apply N.div_lt_upper_bound; lia.
Qed.

Lemma be_encode_length n v : length (be_encode n v) = n.
Proof. revert v; induction n as [|n IH]; intros v; simpl; [reflexivity|]. rewrite app_length, IH. simpl. lia. Qed.

Lemma be_encode_bytes n v : all_bytes (be_encode n v).
Proof.
  revert v; induction n as [|n IH]; intros v; simpl; [constructor|].
  apply Forall_app; split; [apply IH|]. constructor; [|constructor].
  unfold is_byte. apply N.mod_lt. lia.
Qed.

Lemma firstn_be n v (rest : bytes) : firstn n (be_encode n v ++ rest) = be_encode n v.
Proof. rewrite <- (be_encode_length n v) at 1. apply firstn_app_exact. Qed.

Lemma skipn_be n v (rest : bytes) : skipn n (be_encode n v ++ rest) = rest.
Proof. rewrite <- (be_encode_length n v) at 1. apply skipn_app_exact. Qed.

Fixpoint find_mismatches {A} (chk : A -> bool) (l : list A) (i : nat) : list nat :=
  match l with
  | [] => []
  | x :: r => if chk x then find_mismatches chk r (S i) else i :: find_mismatches chk r (S i)
  end.

(* n, n+1, ..., n+k-1 *)
Fixpoint zseq (n : Z) (k : nat) : list Z :=
  match k with O => [] | S k' => n :: zseq (n + 1)%Z k' end.

Lemma in_zseq x n k : In x (zseq n k) <-> (n <= x < n + Z.of_nat k)%Z.
Proof.
  revert n. induction k as [|k IH]; intros n; cbn [zseq In]; [lia|]. rewrite IH. lia.
Qed.
