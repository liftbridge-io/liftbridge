(* The delete cleaner (Log/Retention.v): what it keeps is the segment list with something cut off
   in front, never everything; afterwards the configured limits hold, and no stage removes a
   segment it could have kept; the cleaned log is a well-formed log again whose content is a
   contiguous suffix of the old content. *)
From LB Require Import Base.Prelude Log.Model Log.Retention Log.Proofs.
Open Scope Z_scope.

Lemma Forall_removelast {A} (P : A -> Prop) l : Forall P l -> Forall P (removelast l).
Proof.
  induction 1 as [|x t Hx Ht IH]; [constructor|]. cbn [removelast]. destruct t; [constructor|].
  constructor; assumption.
Qed.

(* two parts of one list that both reach its end: the shorter one is a part of the longer *)
Lemma stage_cases {A} (big s r pre : list A) x :
  big = pre ++ x :: r -> (exists p, big = p ++ s) -> (exists p, s = p ++ r) ->
  (exists q, s = q ++ x :: r) \/ s = r.
Proof.
  intros E (p & Es) (q & Er). destruct q as [|y q _] using rev_ind; [right; exact Er|left].
  rewrite <- app_assoc in Er. cbn [app] in Er. exists q.
  rewrite Es, Er, app_assoc in E. change (y :: r) with ([y] ++ r) in E. change (x :: r) with ([x] ++ r) in E.
  rewrite !app_assoc in E. apply app_inv_tail, app_inj_tail in E. destruct E as [_ ->]. exact Er.
Qed.

Fixpoint wsum (w : seg -> Z) (l : list seg) : Z := match l with [] => 0 | s :: r => w s + wsum w r end.

Lemma wsum_app w a b : wsum w (a ++ b) = wsum w a + wsum w b.
Proof. induction a as [|x t IH]; cbn [app wsum]; [reflexivity|]. rewrite IH. lia. Qed.

Lemma wsum_rev w a : wsum w (rev a) = wsum w a.
Proof. induction a as [|x t IH]; [reflexivity|]. cbn [rev]. rewrite wsum_app, IH. cbn [wsum]. lia. Qed.

Lemma wsum_nonneg w l : (forall s, 0 <= w s) -> 0 <= wsum w l.
Proof. intros H. induction l as [|x t IH]; cbn [wsum]; [lia|]. specialize (H x). lia. Qed.

Definition is_suffix_keeping_last (r segs : list seg) : Prop :=
  exists d, r = skipn d segs /\ (segs <> [] -> (d < length segs)%nat).

(* the form the proofs use: something was cut off in front, and not everything *)
Lemma suffix_iff r segs : is_suffix_keeping_last r segs <-> exists p, segs = p ++ r /\ (segs <> [] -> r <> []).
Proof.
  split.
  - intros (d & -> & H). exists (firstn d segs). split; [symmetry; apply firstn_skipn|].
    intros Hne E. apply (f_equal (@length _)) in E. rewrite skipn_length in E. specialize (H Hne). cbn in E. lia.
  - intros (p & -> & H). exists (length p). split; [symmetry; apply skipn_app_exact|].
    intros Hne. specialize (H Hne). rewrite app_length. destruct r; [congruence|cbn; lia].
Qed.

Lemma suffix_split r segs : is_suffix_keeping_last r segs -> exists p, segs = p ++ r.
Proof. intros H. apply suffix_iff in H. destruct H as (p & E & _). exists p. exact E. Qed.

Lemma suffix_refl segs : is_suffix_keeping_last segs segs.
Proof. apply suffix_iff. exists []. split; [reflexivity|auto]. Qed.

Lemma suffix_trans a b c : is_suffix_keeping_last a b -> is_suffix_keeping_last b c -> is_suffix_keeping_last a c.
Proof.
  intros H1 H2. apply suffix_iff in H1, H2. destruct H1 as (p1 & -> & N1), H2 as (p2 & -> & N2).
  apply suffix_iff. exists (p2 ++ p1). split; [apply app_assoc|auto].
Qed.

Lemma drop_expired_suffix ttl segs : is_suffix_keeping_last (drop_expired ttl segs) segs.
Proof.
  induction segs as [|s r IH]; [apply suffix_refl|].
  cbn [drop_expired]. destruct r as [|s' r']; [apply suffix_refl|].
  destruct (s_last_ts s <? ttl); [|apply suffix_refl].
  apply suffix_iff in IH. destruct IH as (p & E & N). apply suffix_iff. exists (s :: p).
  split; [cbn [app]; f_equal; exact E|]. intros _. apply N. discriminate.
Qed.

(* last-write times non-decreasing: they come from one clock *)
Fixpoint ts_sorted (segs : list seg) : Prop :=
  match segs with
  | [] => True
  | s :: r => match r with [] => True | s' :: _ => s_last_ts s <= s_last_ts s' end /\ ts_sorted r
  end.

Definition unexpired_but_last (ttl : Z) (segs : list seg) : Prop :=
  Forall (fun s => ttl <= s_last_ts s) (removelast segs).

Lemma ts_sorted_all_ge ttl s r : ts_sorted (s :: r) -> ttl <= s_last_ts s -> Forall (fun x => ttl <= s_last_ts x) (s :: r).
Proof.
  revert s. induction r as [|s' r' IH]; intros s Hs Ht; [constructor; [assumption|constructor]|].
  destruct Hs as [H1 H2]. constructor; [assumption|]. apply IH; [assumption|lia].
Qed.

Lemma drop_expired_unexpired ttl segs : ts_sorted segs -> unexpired_but_last ttl (drop_expired ttl segs).
Proof.
  unfold unexpired_but_last. induction segs as [|s r IH]; intros Hs; [constructor|].
  cbn [drop_expired]. destruct r as [|s' r']; [constructor|].
  destruct (Z.ltb_spec (s_last_ts s) ttl).
  - apply IH. apply Hs.
  - apply Forall_removelast. apply ts_sorted_all_ge; [assumption|lia].
Qed.

Lemma ts_sorted_skipn d segs : ts_sorted segs -> ts_sorted (skipn d segs).
Proof.
  revert segs. induction d as [|d IH]; intros segs H; [exact H|]. destruct segs as [|s r]; [exact I|].
  cbn [skipn]. apply IH. apply H.
Qed.

Lemma unexpired_suffix ttl r segs : is_suffix_keeping_last r segs -> unexpired_but_last ttl segs -> unexpired_but_last ttl r.
Proof.
  intros H. apply suffix_iff in H. destruct H as (p & -> & _). unfold unexpired_but_last.
  destruct r as [|x r']; [constructor|]. rewrite removelast_app by discriminate.
  intros Hu. apply Forall_app in Hu. apply Hu.
Qed.

Lemma take_fit_split lim t w r : exists rest, r = take_fit lim t w r ++ rest.
Proof.
  revert t. induction r as [|s r IH]; intros t; [exists []; reflexivity|]. cbn [take_fit].
  destruct (lim <? t + w s); [exists (s :: r); reflexivity|].
  destruct (IH (t + w s)) as (rest & E). exists rest. exact (f_equal (cons s) E).
Qed.

Lemma take_fit_sum lim t w r : take_fit lim t w r = [] \/ t + wsum w (take_fit lim t w r) <= lim.
Proof.
  revert t. induction r as [|s r IH]; intros t; [left; reflexivity|]. cbn [take_fit].
  destruct (Z.ltb_spec lim (t + w s)); [left; reflexivity|]. right.
  destruct (IH (t + w s)) as [E|E]; cbn [wsum].
  - rewrite E. cbn [wsum]. lia.
  - lia.
Qed.

Lemma take_fit_stop lim t w r kept s rest :
  r = kept ++ s :: rest -> take_fit lim t w r = kept -> lim < t + wsum w kept + w s.
Proof.
  revert t kept. induction r as [|x r IH]; intros t kept E H.
  - destruct kept; discriminate.
  - cbn [take_fit] in H. destruct (Z.ltb_spec lim (t + w x)).
    + subst kept. cbn [app] in E. injection E as -> _. cbn [wsum]. lia.
    + destruct kept as [|k kept']; [discriminate|]. injection H as -> H. cbn in E. injection E as E.
      specialize (IH (t + w k) kept' E H). cbn [wsum]. lia.
Qed.

Lemma apply_limit_snoc lim w init last :
  apply_limit lim w (init ++ [last]) = rev (take_fit lim (w last) w (rev init)) ++ [last].
Proof. unfold apply_limit. rewrite rev_app_distr. reflexivity. Qed.

Lemma apply_limit_suffix lim w segs : is_suffix_keeping_last (apply_limit lim w segs) segs.
Proof.
  destruct segs as [|last init _] using rev_ind; [apply suffix_refl|]. apply suffix_iff.
  rewrite apply_limit_snoc. destruct (take_fit_split lim (w last) w (rev init)) as (rest & E).
  exists (rev rest). split; [|intros _ E0; destruct (app_cons_not_nil _ _ _ (eq_sym E0))].
  rewrite app_assoc, <- rev_app_distr, <- E, rev_involutive. reflexivity.
Qed.

Lemma apply_limit_holds lim w segs :
  (length (apply_limit lim w segs) <= 1)%nat \/ wsum w (apply_limit lim w segs) <= lim.
Proof.
  destruct segs as [|s t _] using rev_ind; [left; cbn; lia|]. rewrite apply_limit_snoc.
  destruct (take_fit_sum lim (w s) w (rev t)) as [H|H].
  - left. rewrite H. cbn. lia.
  - right. rewrite wsum_app, wsum_rev. cbn [wsum]. lia.
Qed.

Lemma apply_limit_minimal lim w segs pre x rest :
  apply_limit lim w segs = rest -> segs = pre ++ x :: rest -> lim < wsum w rest + w x.
Proof.
  intros E Hs. destruct segs as [|s t _] using rev_ind; [destruct pre; discriminate|].
  rewrite apply_limit_snoc in E. set (kept := take_fit lim (w s) w (rev t)) in *. subst rest.
  assert (Ht : t = pre ++ x :: rev kept).
  { rewrite app_comm_cons, app_assoc in Hs. apply app_inj_tail in Hs. tauto. }
  apply (f_equal (@rev _)) in Ht. rewrite rev_app_distr in Ht. cbn [rev] in Ht. rewrite rev_involutive, <- app_assoc in Ht.
  pose proof (take_fit_stop lim (w s) w (rev t) kept x _ Ht eq_refl) as H.
  rewrite wsum_app, wsum_rev. cbn [wsum]. lia.
Qed.

Lemma drop_expired_minimal ttl segs pre x rest :
  drop_expired ttl segs = rest -> segs = pre ++ x :: rest -> s_last_ts x < ttl.
Proof.
  revert pre. induction segs as [|s r IH]; intros pre E Hs; [destruct pre; discriminate|].
  cbn [drop_expired] in E. destruct r as [|s' r']; [subst rest; destruct (app_cons_neq _ _ _ Hs)|].
  destruct (Z.ltb_spec (s_last_ts s) ttl) as [Hlt|Hge]; [|subst rest; destruct (app_cons_neq _ _ _ Hs)].
  destruct pre as [|p pre']; cbn [app] in Hs; injection Hs as -> Hs; [exact Hlt|exact (IH pre' E Hs)].
Qed.

Lemma retain_stages lim ttl segs : exists s1 s2,
  s1 = (if 0 <? lim_age lim then drop_expired ttl segs else segs) /\
  s2 = (if 0 <? lim_msgs lim then apply_limit (lim_msgs lim) s_count s1 else s1) /\
  retain lim ttl segs = (if 0 <? lim_bytes lim then apply_limit (lim_bytes lim) s_pos s2 else s2) /\
  is_suffix_keeping_last s1 segs /\ is_suffix_keeping_last s2 s1 /\ is_suffix_keeping_last (retain lim ttl segs) s2.
Proof.
  unfold retain. eexists. eexists. split; [reflexivity|]. split; [reflexivity|]. split; [reflexivity|].
  split; [|split].
  - destruct (0 <? lim_age lim); [apply drop_expired_suffix|apply suffix_refl].
  - destruct (0 <? lim_msgs lim); [apply apply_limit_suffix|apply suffix_refl].
  - destruct (0 <? lim_bytes lim); [apply apply_limit_suffix|apply suffix_refl].
Qed.

Theorem retain_suffix lim ttl segs : is_suffix_keeping_last (retain lim ttl segs) segs.
Proof.
  destruct (retain_stages lim ttl segs) as (s1 & s2 & _ & _ & _ & H1 & H2 & H3).
  exact (suffix_trans _ _ _ H3 (suffix_trans _ _ _ H2 H1)).
Qed.

Lemma s_count_nonneg s : 0 <= s_count s.
Proof. unfold s_count. lia. Qed.

Lemma s_pos_nonneg s : 0 <= s_pos s.
Proof.
  unfold s_pos. apply (fold_left_inv _ (fun a => 0 <= a)); [|apply Z.le_refl]. intros a r Ha. unfold rsize. lia.
Qed.

Lemma suffix_of_single r s : is_suffix_keeping_last r [s] -> r = [s].
Proof. intros (d & -> & H). specialize (H ltac:(discriminate)). cbn in H. destruct d; [reflexivity|lia]. Qed.

Lemma limit_suffix w lim r segs : (forall s, 0 <= w s) -> is_suffix_keeping_last r segs ->
  (length segs <= 1)%nat \/ wsum w segs <= lim -> (length r <= 1)%nat \/ wsum w r <= lim.
Proof.
  intros Hw H. apply suffix_iff in H. destruct H as (p & -> & _). rewrite app_length, wsum_app.
  pose proof (wsum_nonneg w p Hw). lia.
Qed.

Theorem retain_limits_hold lim ttl segs : ts_sorted segs ->
  let r := retain lim ttl segs in
  (length r <= 1)%nat \/
  ((0 < lim_msgs lim -> wsum s_count r <= lim_msgs lim) /\
   (0 < lim_bytes lim -> wsum s_pos r <= lim_bytes lim) /\
   (0 < lim_age lim -> unexpired_but_last ttl r)).
Proof.
  intros Hts. cbv zeta. destruct (retain_stages lim ttl segs) as (s1 & s2 & D1 & D2 & D3 & _ & H2 & H3).
  destruct (Nat.le_gt_cases (length (retain lim ttl segs)) 1) as [Hl|Hl]; [left; exact Hl|]. right.
  split; [|split]; intros H; apply Z.ltb_lt in H.
  - rewrite H in D2. pose proof (apply_limit_holds (lim_msgs lim) s_count s1) as Hm. rewrite <- D2 in Hm.
    destruct (limit_suffix s_count _ _ _ s_count_nonneg H3 Hm); [lia|assumption].
  - rewrite H in D3. rewrite D3 in *. destruct (apply_limit_holds (lim_bytes lim) s_pos s2); [lia|assumption].
  - rewrite H in D1. eapply unexpired_suffix; [exact H3|]. eapply unexpired_suffix; [exact H2|].
    rewrite D1. apply drop_expired_unexpired. exact Hts.
Qed.

(* never a segment whose removal is not needed to satisfy a limit: the newest removed
   segment violates a configured limit together with what was kept *)
Theorem retain_minimal lim ttl segs pre x :
  segs = pre ++ x :: retain lim ttl segs ->
  (0 < lim_age lim /\ s_last_ts x < ttl) \/
  (0 < lim_msgs lim /\ lim_msgs lim < wsum s_count (retain lim ttl segs) + s_count x) \/
  (0 < lim_bytes lim /\ lim_bytes lim < wsum s_pos (retain lim ttl segs) + s_pos x).
Proof.
  destruct (retain_stages lim ttl segs) as (s1 & s2 & D1 & D2 & D3 & H1 & H2 & H3). intros Hs.
  (* x went in the last stage that removed anything *)
  destruct (stage_cases segs s2 _ pre x Hs (suffix_split _ _ (suffix_trans _ _ _ H2 H1)) (suffix_split _ _ H3)) as [(q & E)|E3].
  { right. right. revert D3. destruct (Z.ltb_spec 0 (lim_bytes lim)) as [Hb|_]; intros D3.
    - split; [exact Hb|]. eapply apply_limit_minimal; [symmetry; exact D3|exact E].
    - rewrite D3 in E. destruct (app_cons_neq _ _ _ E). }
  rewrite <- E3 in *. clear D3 H3 E3.
  destruct (stage_cases segs s1 s2 pre x Hs (suffix_split _ _ H1) (suffix_split _ _ H2)) as [(q & E)|E2].
  { right. left. revert D2. destruct (Z.ltb_spec 0 (lim_msgs lim)) as [Hm|_]; intros D2.
    - split; [exact Hm|]. eapply apply_limit_minimal; [symmetry; exact D2|exact E].
    - rewrite D2 in E. destruct (app_cons_neq _ _ _ E). }
  rewrite <- E2 in *. clear D2 H2 E2.
  destruct (stage_cases segs segs s1 pre x Hs (ex_intro _ [] eq_refl) (suffix_split _ _ H1)) as [(q & E)|E1];
    [|rewrite <- E1 in Hs; destruct (app_cons_neq _ _ _ Hs)].
  left. revert D1. destruct (Z.ltb_spec 0 (lim_age lim)) as [Ha|_]; intros D1.
  - split; [exact Ha|]. eapply drop_expired_minimal; [symmetry; exact D1|exact E].
  - rewrite D1 in E. destruct (app_cons_neq _ _ _ E).
Qed.

Lemma suffix_log r l : is_suffix_keeping_last r (l_segs l) ->
  (exists n, flat r = skipn n (all_recs l)) /\
  (wf l -> segs_wf 0 r /\ r <> [] /\ last r dummy_seg = active l).
Proof.
  intros H. apply suffix_iff in H. destruct H as (p & E & N). unfold all_recs, active. rewrite E. split.
  - exists (length (flat p)). fold (flat (p ++ r)). rewrite flat_app, skipn_app_exact. reflexivity.
  - intros [Hne Hw]. specialize (N Hne). rewrite E in Hw. apply segs_wf_app in Hw. destruct Hw as [Hp Hr].
    split; [eapply segs_wf_weaken; [apply (chain_next_ge 0 p); [lia|exact Hp]|exact Hr]|]. split; [exact N|].
    destruct (exists_last N) as (r' & a & ->). rewrite app_assoc, !last_last. reflexivity.
Qed.

Theorem clean_content_suffix lim ttl l :
  exists n, all_recs (clean lim ttl l) = skipn n (all_recs l).
Proof. exact (proj1 (suffix_log _ l (retain_suffix lim ttl (l_segs l)))). Qed.

(* the cleaned log is again a well-formed log, so readers behave as on any log (C01) *)
Theorem clean_wf lim ttl l : wf l -> wf (clean lim ttl l).
Proof.
  intros Hw. destruct (proj2 (suffix_log _ l (retain_suffix lim ttl (l_segs l))) Hw) as (Hs & Hne & _).
  split; [exact Hne|exact Hs].
Qed.
