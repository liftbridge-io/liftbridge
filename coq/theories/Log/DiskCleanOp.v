(* Crash safety of Clean, assembled: retention, then (when compaction is on and at least two segments
   are left) the rewriting of every segment but the last, then the epoch checkpoint. *)
From LB Require Import Base.Prelude Log.Model Log.Retention Log.Compact Log.Proofs Log.Refine Log.RetentionProofs Log.CompactProofs
  Log.Disk Log.DiskBase Log.DiskProofs Log.DiskBlocks Log.DiskClean.
From Coq Require Import ZifyBool.
Open Scope Z_scope.

Lemma compact_incl key_of hw older last x :
  In x (flat (compact_segs key_of false hw (older ++ [last]))) -> In x (flat (older ++ [last])).
Proof.
  rewrite compact_segs_snoc, !flat_app, flat_filter_nonempty, flat_map_clean. intros Hx. apply in_app_or in Hx. apply in_or_app.
  destruct Hx as [Hx|Hx]; [left; apply filter_In in Hx; apply Hx|right; exact Hx].
Qed.

Lemma done_segs key_of s body lastm l :
  map m_seg (done_of key_of s body lastm l) =
  filter CompactProofs.nonempty (map (clean_seg key_of false (s_hw s) (concat (map s_recs (map m_seg (body ++ [lastm]))))) (map m_seg l)).
Proof.
  induction l as [|m t IH]; [reflexivity|]. unfold done_of in *. cbn [map filter].
  unfold CompactProofs.nonempty at 1. cbn [clean_seg s_recs]. unfold nfm at 1. change (m_recs m) with (s_recs (m_seg m)).
  destruct (filter (retained key_of false (s_hw s) (concat (map s_recs (map m_seg (body ++ [lastm]))))) (s_recs (m_seg m))) as [|r0 rt] eqn:Ef; cbn [nonempty].
  - exact IH.
  - cbn [map]. rewrite <- IH. reflexivity.
Qed.

(* the epoch cache rebuilt from the records left, when the old cache explained their epochs *)
Lemma rebuilt_cache c rs : csorted c -> cmatch c rs -> sorted_from 0 rs ->
  let c' := cache_assign_all [] rs in csorted c' /\ cbound c' (next_after 0 rs) /\ cmatch c' rs.
Proof.
  intros Hs Hm Hsort.
  assert (Hmono : ep_mono 0 rs) by (apply (match_mono c rs Hs Hm 0 0%N Hsort); intros; apply N.le_0_l).
  assert (H0 : cfit [] 0 []) by (split; [exact I|split; [intros ? ? []|split; intros ? []]]).
  destruct (cfit_assign_all rs [] 0 [] (Z.le_refl 0) H0 Hsort Hmono) as [(A & B & C & _) _].
  split; [exact A|split; [exact B|exact C]].
Qed.

Lemma clean_effs_cases key_of lim ttl d hw (compact : bool) :
  let dels := fst (retention_effs lim ttl (segs_of d)) in let s3 := snd (retention_effs lim ttl (segs_of d)) in
  clean_effs key_of fixed compact lim ttl d hw =
  match compact, s3 with
  | true, _ :: _ :: _ => dels ++ concat (map (compact_one key_of fixed hw (concat (map s_recs s3))) (removelast s3))
           ++ [FPoint PCleanCleaned; FEpochs (cache_assign_all [] (concat (map s_recs (compact_segs key_of false hw s3))))]
  | _, _ => dels ++ [FPoint PCleanCleaned; FEpochs (cache_clear_earliest (d_ep d) (match s3 with [] => 0 | sg :: _ => s_base sg end))]
  end.
Proof. unfold clean_effs. destruct (retention_effs lim ttl (segs_of d)). reflexivity. Qed.

Section CleanOp.
  Variable key_of : bytes -> option bytes.
  Variable p : params.
  Variable s : st.
  Hypothesis G : Good s.
  Variable ttl : Z.

  Let d0 := s_disk s.
  Let c0 := d_ep d0.
  Let hw := s_hw s.
  Let S0 := segs_of d0.
  Definition s3 : list seg := snd (retention_effs (p_lim p) ttl (segs_of (s_disk s))).

  (* the segments Clean leaves (the in-memory model's answer) *)
  Definition clean_target : list seg :=
    match p_compact p, s3 with
    | true, _ :: _ :: _ => compact_segs key_of false hw s3
    | _, _ => s3
    end.
  Definition Kc (x : rec) : Prop := In x (flat clean_target).

  Let R := Image s (DClean ttl) Kc.

  (* the epoch cache Clean leaves (the in-memory model's answer) *)
  Definition clean_cache : epoch_cache :=
    match p_compact p, s3 with
    | true, _ :: _ :: _ => cache_assign_all [] (concat (map s_recs (compact_segs key_of false hw s3)))
    | _, _ => cache_clear_earliest c0 (match s3 with [] => 0 | sg :: _ => s_base sg end)
    end.

  Definition clean_final (d : disk) : Prop :=
    exists segs c, meq d (cmk s segs [] c) /\ segs <> [] /\ (forall m, In m segs -> m_idx m = Some (m_recs m)) /\
      cbound c (m_next (last segs dummy_m)) /\ R (cmk s segs [] c) /\ map m_seg segs = clean_target /\ c = clean_cache.

  Lemma next_suffix (gone rest : list mseg) : d_segs d0 = gone ++ rest -> rest <> [] -> m_next (last rest dummy_m) = next_of s.
  Proof.
    intros E Hne. unfold next_of, d_active. fold d0. rewrite E. destruct (exists_last Hne) as (l & x & ->). rewrite app_assoc, !last_last. reflexivity.
  Qed.

  Lemma clean_branch : let dels := fst (retention_effs (p_lim p) ttl S0) in
    (exists older lastS, s3 = older ++ [lastS] /\ clean_target = compact_segs key_of false hw s3 /\
       clean_cache = cache_assign_all [] (concat (map s_recs clean_target)) /\
       clean_effs key_of fixed (p_compact p) (p_lim p) ttl d0 hw =
         dels ++ concat (map (compact_one key_of fixed hw (concat (map s_recs s3))) (removelast s3)) ++ [FPoint PCleanCleaned; FEpochs clean_cache]) \/
    (clean_target = s3 /\ clean_cache = cache_clear_earliest c0 (match s3 with [] => 0 | sg :: _ => s_base sg end) /\
     clean_effs key_of fixed (p_compact p) (p_lim p) ttl d0 hw = dels ++ [FPoint PCleanCleaned; FEpochs clean_cache]).
  Proof.
    cbv zeta. pose proof (clean_effs_cases key_of (p_lim p) ttl d0 hw (p_compact p)) as Ee. cbv zeta in Ee.
    change (snd (retention_effs (p_lim p) ttl (segs_of d0))) with s3 in Ee. unfold clean_target, clean_cache.
    revert Ee. destruct (p_compact p); [destruct s3 as [|a [|b u]]|]; intros Ee.
    1,2,4: right; split; [reflexivity|split; [reflexivity|exact Ee]].
    left. destruct (exists_last (l := a :: b :: u) ltac:(discriminate)) as (older & lastS & E). exists older, lastS.
    split; [exact E|]. split; [reflexivity|split; [reflexivity|exact Ee]].
  Qed.

  Lemma checkpoint_final segs : segs <> [] -> (forall m, In m segs -> m_idx m = Some (m_recs m)) -> m_next (last segs dummy_m) = next_of s ->
    cbound clean_cache (next_of s) -> R (cmk s segs [] c0) -> R (cmk s segs [] clean_cache) -> map m_seg segs = clean_target ->
    seq R (at_ (cmk s segs [] c0)) [FPoint PCleanCleaned; FEpochs clean_cache] clean_final.
  Proof.
    intros Hne Hidx Hnx Hcb R0 R1 Ht. apply seq_cons_point.
    eapply seq_conseq; [intros d Hd; exact Hd| |apply (seq_main R _ (MEpochs clean_cache) _ (cmk s segs [] clean_cache)); [apply Image_main|reflexivity|apply meq_refl|exact R0|exact R1]].
    intros d Hd. exists segs, clean_cache. rewrite Hnx. split; [exact Hd|]. split; [exact Hne|]. split; [exact Hidx|]. split; [exact Hcb|]. split; [exact R1|]. split; [exact Ht|reflexivity].
  Qed.

  Lemma compact_branch gone body lastm : d_segs d0 = gone ++ body ++ [lastm] -> s3 = map m_seg (body ++ [lastm]) ->
    clean_target = compact_segs key_of false hw s3 -> clean_cache = cache_assign_all [] (concat (map s_recs clean_target)) ->
    seq R (at_ (cmk s (body ++ [lastm]) [] c0))
        (concat (map (compact_one key_of fixed hw (concat (map s_recs s3))) (removelast s3)) ++ [FPoint PCleanCleaned; FEpochs clean_cache]) clean_final.
  Proof.
    intros Esegs Es3 Ht Hc. set (all := concat (map s_recs (map m_seg (body ++ [lastm])))).
    assert (Htarget : clean_target = filter CompactProofs.nonempty (map (clean_seg key_of false hw all) (map m_seg body)) ++ [m_seg lastm]).
    { rewrite Ht, Es3. unfold all. rewrite map_app. cbn [map]. apply compact_segs_snoc; assumption. }
    assert (HKc : forall x, In x (content (s_disk s)) -> Kc x ->
               In x (m_recs lastm) \/ (retained key_of false (s_hw s) all x = true /\ In x (concat (map m_recs body)))).
    { intros x _ Hk. unfold Kc in Hk. rewrite Htarget, flat_app, flat_filter_nonempty, flat_map_clean in Hk. apply in_app_or in Hk. destruct Hk as [Hk|Hk].
      - right. apply filter_In in Hk. destruct Hk as [Hx Hr]. split; [exact Hr|]. rewrite <- mrecs_flat in Hx. exact Hx.
      - left. unfold flat in Hk. cbn [map concat] in Hk. rewrite app_nil_r in Hk. exact Hk. }
    set (fin := done_of key_of s body lastm body).
    assert (Hfinsegs : map m_seg (fin ++ [lastm]) = clean_target) by (rewrite Htarget, map_app; cbn [map]; f_equal; apply done_segs).
    assert (Hbtw : btw key_of s body lastm fin body) by apply btw_done.
    assert (Hfit0 := c0_fits key_of s G gone body lastm Esegs fin Hbtw).
    assert (R0 : R (cmk s (fin ++ [lastm]) [] c0)) by (apply (comp_image key_of s G ttl Kc gone body lastm Esegs HKc fin [] c0 Hbtw (g_csorted _ G) Hfit0)).
    (* compaction ends by writing a cache rebuilt from the records left; that the old cache still fits them
       (Hfit0) is what makes their epochs monotone, and so the rebuilt one right (rebuilt_cache) *)
    assert (Hsorted : sorted_from 0 (mrecs (fin ++ [lastm]))).
    { pose proof (flat_sorted 0 _ (Z.le_refl 0) (WF_segs_wf _ (mi_wf _ _ (proj1 R0)))) as [Hs _]. rewrite <- content_flat in Hs. exact Hs. }
    assert (EcN : clean_cache = cache_assign_all [] (mrecs (fin ++ [lastm]))) by (rewrite Hc, <- Hfinsegs; symmetry; apply (f_equal (cache_assign_all [])), mrecs_flat).
    destruct (rebuilt_cache c0 _ (g_csorted _ G) Hfit0 Hsorted) as (NA & NB & NC). rewrite <- EcN in NA, NB, NC.
    destruct (good_cfit s G) as (_ & _ & _ & Hbelow).
    assert (Hlast : In lastm (d_segs d0)) by (apply (last_in s gone body lastm Esegs)).
    apply (seq_app R _ _ (at_ (cmk s (fin ++ [lastm]) [] c0))).
    { rewrite Es3. replace (removelast (map m_seg (body ++ [lastm]))) with (map m_seg body) by (rewrite map_app; cbn [map]; rewrite removelast_last; reflexivity).
      apply (compact_loop key_of s G ttl Kc gone body lastm Esegs HKc body [] eq_refl). }
    apply checkpoint_final; [destruct fin; discriminate| |rewrite last_last, <- (next_suffix gone (body ++ [lastm]) Esegs), last_last by (destruct body; discriminate); reflexivity| |exact R0| |exact Hfinsegs].
    - intros m Hm. apply in_app_or in Hm. destruct Hm as [Hm|[<-|[]]]; [|apply (g_idx _ G), Hlast].
      unfold fin, done_of in Hm. apply in_map_iff in Hm. destruct Hm as (m0 & <- & _). reflexivity.
    - intros e st Hin. apply (Z.le_trans _ _ _ (NB e st Hin)). apply next_after_le; [exact (good_next_nonneg s G)|].
      intros x Hx. apply Hbelow. destruct R0 as (_ & A & _). destruct (A x Hx) as [H|[]]. exact H.
    - apply (comp_image key_of s G ttl Kc gone body lastm Esegs HKc fin [] clean_cache Hbtw NA NC).
  Qed.

  Lemma retention_branch gone rest3 : d_segs d0 = gone ++ rest3 -> map m_seg rest3 = s3 -> rest3 <> [] -> keeps s Kc rest3 ->
    clean_target = s3 -> clean_cache = cache_clear_earliest c0 (match s3 with [] => 0 | sg :: _ => s_base sg end) ->
    seq R (at_ (cmk s rest3 [] c0)) [FPoint PCleanCleaned; FEpochs clean_cache] clean_final.
  Proof.
    intros Esegs M3 Hne3 Hk3 Ht Hc.
    assert (Hsub3 : subseq rest3 (d_segs d0)) by (rewrite Esegs; apply subseq_suffix).
    pose proof (subseq_msub _ _ Hsub3) as Hm3.
    set (fb := match s3 with [] => 0 | sg :: _ => s_base sg end) in *.
    assert (Hfb : (forall x, In x (mrecs rest3) -> fb <= r_off x) /\ fb <= next_of s).
    { unfold fb. rewrite <- M3. destruct rest3 as [|m0 rt]; [contradiction|]. cbn [map]. split; [|apply (good_base_le s m0 G), (subseq_incl _ _ Hsub3); left; reflexivity].
      intros x Hx. apply (WF_first_base (m_seg m0) (map m_seg rt)); [apply (WF_ssub _ _ (msub_ssub _ _ Hm3)), (g_wf _ G)|].
      rewrite mrecs_flat in Hx. exact Hx. }
    destruct Hfb as [Hfb1 Hfb2].
    apply checkpoint_final; [exact Hne3|intros m Hm; apply (g_idx _ G), (subseq_incl _ _ Hsub3), Hm|apply (next_suffix gone rest3 Esegs Hne3)| | | |rewrite Ht; exact M3].
    - rewrite Hc. apply clear_earliest_bound; [apply (g_csorted _ G)|apply (g_cbound _ G)|exact Hfb2].
    - apply (csub_image s G ttl Kc); assumption.
    - rewrite Hc. apply shrunk_image; [exact G|exact Hm3|apply keeps_content; exact Hk3|apply clear_earliest_sorted, (g_csorted _ G)|].
      apply clear_earliest_match; [apply (g_csorted _ G)|apply old_cache_fits; assumption|exact Hfb1].
  Qed.

  Theorem clean_op_seq :
    seq R (at_ d0) (clean_effs key_of fixed (p_compact p) (p_lim p) ttl d0 hw) clean_final.
  Proof.
    assert (HKs3 : forall x, In x (content d0) -> Kc x -> In x (flat s3)).
    { intros x _. unfold Kc. destruct clean_branch as [(older & lastS & E3 & -> & _)|(-> & _)]; [rewrite E3; apply compact_incl|auto]. }
    destruct (retention_seq s G ttl Kc (p_lim p) HKs3) as (gone & rest3 & Esegs & M3 & Hne3 & Hk3 & Hseq).
    eapply seq_conseq; [exact (start_at s G)|intros d Hd; exact Hd|].
    destruct clean_branch as [(older & lastS & E3 & Ht & Hc & ->)|(Ht & Hc & ->)]; apply (seq_app R _ _ _ _ _ Hseq).
    - destruct (exists_last Hne3) as (body & lastm & ->). fold s3 in M3. rewrite E3, map_app in M3. apply app_inj_tail in M3. destruct M3 as [Eb El].
      apply (compact_branch gone body lastm Esegs); [rewrite E3, map_app, Eb; cbn [map]; rewrite El; reflexivity|exact Ht|exact Hc].
    - apply (retention_branch gone rest3); assumption.
  Qed.
End CleanOp.
