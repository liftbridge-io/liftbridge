(* Repeated cleans (C09, "repeated cleans"): a segment list on which the configured limits
   already hold is a fixed point of the delete cleaner, so a second Clean with the same
   clock removes nothing; without ordered last-write times this is false (refuted below),
   which is why C09_repeated_clean_idempotent assumes ts_sorted.  Then cleans between the
   writers' operations: the newest segment survives a Clean, so the next append is the one
   it would have been, and every history of writers' operations and cleans leads to a
   well-formed log. *)
From LB Require Import Base.Prelude Log.Model Log.Retention Log.Proofs Log.Refine Log.RetentionProofs.
Open Scope Z_scope.

Lemma take_fit_all lim t w r : (forall s, 0 <= w s) -> t + wsum w r <= lim -> take_fit lim t w r = r.
Proof.
  intros Hw. revert t. induction r as [|s r IH]; intros t H; [reflexivity|].
  cbn [take_fit wsum] in *. pose proof (wsum_nonneg w r Hw).
  destruct (Z.ltb_spec lim (t + w s)) as [Hlt|Hge]; [lia|].
  f_equal. apply IH. lia.
Qed.

Lemma apply_limit_id lim w segs : (forall s, 0 <= w s) ->
  (length segs <= 1)%nat \/ wsum w segs <= lim -> apply_limit lim w segs = segs.
Proof.
  intros Hw H. destruct segs as [|last init _] using rev_ind; [reflexivity|]. rewrite apply_limit_snoc.
  rewrite app_length, wsum_app in H. cbn [length wsum] in H. destruct H as [H|H].
  - destruct init; [reflexivity|cbn in H; lia].
  - rewrite take_fit_all, rev_involutive; [reflexivity|exact Hw|rewrite wsum_rev; lia].
Qed.

Lemma drop_expired_fix ttl segs : (length segs <= 1)%nat \/ unexpired_but_last ttl segs -> drop_expired ttl segs = segs.
Proof.
  destruct segs as [|a [|b t]]; [reflexivity|reflexivity|]. intros [H|H]; [cbn in H; lia|].
  apply Forall_inv in H. cbn [drop_expired]. destruct (Z.ltb_spec (s_last_ts a) ttl); [lia|reflexivity].
Qed.

Lemma stage_fix {A} (on : bool) (f : A -> A) s : (on = true -> f s = s) -> (if on then f s else s) = s.
Proof. intros H. destruct on; [apply H|]; reflexivity. Qed.

Theorem retain_fixpoint lim ttl segs :
  (length segs <= 1)%nat \/
  ((0 < lim_msgs lim -> wsum s_count segs <= lim_msgs lim) /\
   (0 < lim_bytes lim -> wsum s_pos segs <= lim_bytes lim) /\
   (0 < lim_age lim -> unexpired_but_last ttl segs)) ->
  retain lim ttl segs = segs.
Proof.
  intros H. unfold retain.
  rewrite (stage_fix _ (drop_expired ttl) segs), (stage_fix _ (apply_limit (lim_msgs lim) s_count) segs).
  - apply stage_fix. intros L. apply apply_limit_id; [apply s_pos_nonneg|lia].
  - intros L. apply apply_limit_id; [apply s_count_nonneg|lia].
  - intros L. apply Z.ltb_lt in L. apply drop_expired_fix. tauto.
Qed.

Theorem retains_suffix (cs : list (limits * Z)) segs :
  is_suffix_keeping_last (fold_left (fun s c => retain (fst c) (snd c) s) cs segs) segs.
Proof.
  revert segs. induction cs as [|c cs IH]; intros segs; cbn [fold_left]; [apply suffix_refl|].
  eapply suffix_trans; [apply IH|apply retain_suffix].
Qed.

(* whatever the limits and the clock of the second Clean: its result is still a suffix of the
   first one's input that keeps the newest segment *)
Theorem retain_twice_suffix lim1 ttl1 lim2 ttl2 segs :
  is_suffix_keeping_last (retain lim2 ttl2 (retain lim1 ttl1 segs)) segs.
Proof. exact (retains_suffix [(lim1, ttl1); (lim2, ttl2)] segs). Qed.

Definition mkseg_ts (base ts : Z) : seg := mkSeg base [mkRec base ts 0%N []].

(* with last-write times out of order the message limit can expose an expired segment that
   the age pass had stopped in front of *)
Theorem retain_idempotent_needs_one_clock : exists lim ttl segs,
  retain lim ttl (retain lim ttl segs) <> retain lim ttl segs.
Proof.
  exists (mkLimits 0 2 1), 5, [mkseg_ts 0 9; mkseg_ts 1 3; mkseg_ts 2 9].
  vm_compute. discriminate.
Qed.

(* non-vacuity: a sorted layout on which the first Clean removes something and the second
   one nothing *)
Example retain_idempotent_example :
  let segs := [mkseg_ts 0 1; mkseg_ts 1 3; mkseg_ts 2 9; mkseg_ts 3 9] in
  ts_sorted segs /\
  map s_base (retain (mkLimits 0 2 1) 2 segs) = [2; 3] /\
  map s_base (retain (mkLimits 0 2 1) 2 (retain (mkLimits 0 2 1) 2 segs)) = [2; 3].
Proof. vm_compute. repeat split; discriminate. Qed.

(* Cleans that run while the log is written (C09, "cleans that run while new segments are
   appended"): the newest segment survives every Clean, so the log end, the HW and the
   read-only flag are what they were, and the next append hands out the same offsets it would
   have handed out without the Clean. *)
Theorem clean_keeps_end lim ttl l : wf l ->
  active (clean lim ttl l) = active l /\ newest (clean lim ttl l) = newest l /\
  l_hw (clean lim ttl l) = l_hw l /\ l_ro (clean lim ttl l) = l_ro l.
Proof.
  intros Hw. destruct (proj2 (suffix_log _ l (retain_suffix lim ttl (l_segs l))) Hw) as (_ & _ & Ha).
  (* the segments of the cleaned log are the retained ones, and its active segment their last *)
  change (active (clean lim ttl l) = active l) in Ha.
  split; [exact Ha|]. split; [unfold newest; rewrite Ha; reflexivity|]. split; reflexivity.
Qed.

Theorem append_after_clean maxb lim ttl l ms l' offs : wf l ->
  append maxb false (clean lim ttl l) ms = Ok (l', offs) ->
  wf l' /\ offs = zseq (newest l + 1) (length ms) /\
  (exists n, all_recs l' = skipn n (all_recs l) ++ number (newest l + 1) ms) /\
  newest l' = newest l + Z.of_nat (length ms).
Proof.
  intros Hw E. pose proof (clean_wf lim ttl l Hw) as Hwc.
  destruct (clean_keeps_end lim ttl l Hw) as (_ & Hn & _ & _).
  destruct (append_ok _ _ _ _ _ Hwc E) as (H1 & H2 & H3 & _ & H5).
  rewrite Hn in *. split; [exact H1|]. split; [exact H3|]. split; [|exact H5].
  pose proof (clean_content_suffix lim ttl l) as (n & En). exists n. rewrite H2, En. reflexivity.
Qed.

(* histories: the writers' operations of C01 interleaved with cleans under any limits and
   cut-offs; every reachable log is well formed, so every reader of it behaves as C01 says *)
Inductive cop :=
| CHop (o : hop)
| CClean (lim : limits) (ttl : Z).

Definition cstep (maxb : Z) (l : log) (c : cop) : log :=
  match c with
  | CHop o => hstep maxb l o
  | CClean lim ttl => clean lim ttl l
  end.

Definition cop_valid (l : log) (c : cop) : Prop :=
  match c with CHop o => hop_valid l o | CClean _ _ => True end.

Inductive creachable (maxb : Z) : log -> Prop :=
| creach_new : creachable maxb new_log
| creach_step l c : creachable maxb l -> cop_valid l c -> creachable maxb (cstep maxb l c).

Lemma cstep_wf maxb l c : wf l -> cop_valid l c -> wf (cstep maxb l c).
Proof.
  intros Hw Hv. destruct c as [o|lim ttl]; cbn [cstep]; [apply (hstep_refines maxb l o Hw Hv)|apply clean_wf; exact Hw].
Qed.

Theorem creachable_wf maxb l : creachable maxb l -> wf l.
Proof. induction 1 as [|l c _ IH Hv]; [apply new_log_wf|exact (cstep_wf maxb l c IH Hv)]. Qed.

Theorem cstep_content maxb l c : wf l -> cop_valid l c ->
  match c with
  | CHop o => all_recs (cstep maxb l c) = spec_step l (all_recs l) o
  | CClean _ _ => (exists n, all_recs (cstep maxb l c) = skipn n (all_recs l)) /\
                  newest (cstep maxb l c) = newest l
  end /\ l_hw l <= l_hw (cstep maxb l c).
Proof.
  intros Hw Hv. destruct c as [o|lim ttl]; cbn [cstep].
  - destruct (hstep_refines maxb l o Hw Hv) as (_ & H2 & H3). split; assumption.
  - destruct (clean_keeps_end lim ttl l Hw) as (_ & Hn & Hh & _).
    split; [split; [apply clean_content_suffix|exact Hn]|]. rewrite Hh. lia.
Qed.

(* non-vacuity: appends, a Clean that removes two segments, an append, another Clean *)
Example creachable_example :
  let m := mkMsg 5 1%N [1;2;3]%N (-1) in
  let ops := [CHop (HAppend [m; m; m]); CHop (HAppend [m; m; m]); CHop (HAppend [m; m; m]);
              CClean (mkLimits 0 5 0) 0; CHop (HAppend [m; m]); CClean (mkLimits 0 5 0) 0] in
  let l := fold_left (cstep 70) ops new_log in
  map s_base (l_segs l) = [6; 9] /\ newest l = 10 /\ map r_off (all_recs l) = [6; 7; 8; 9; 10].
Proof. vm_compute. repeat split. Qed.
