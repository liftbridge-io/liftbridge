(* The building blocks of truncation, retention and compaction -- deleting a segment (log, then
   index) and replacing a segment by a copy written to <base>.log.<suffix> / <base>.index.<suffix>
   and renamed into place (segment.Replace) -- as statements about every prefix of their effects,
   first for given states, then for the segment in the middle of a list. States are compared up to
   the scratch files (`meq`); `Good`, `Mid` and `Image` do not look at those. *)
From LB Require Import Base.Prelude Log.Model Log.Retention Log.Compact Log.Proofs Log.Disk Log.DiskBase Log.DiskProofs.
From Coq Require Import ZifyBool.
Open Scope Z_scope.

Definition meq (d d' : disk) : Prop :=
  d_segs d = d_segs d' /\ d_orph d = d_orph d' /\ d_hw d = d_hw d' /\ d_ep d = d_ep d'.

Lemma meq_refl d : meq d d.
Proof. repeat split. Qed.
Lemma meq_sym d d' : meq d d' -> meq d' d.
Proof. intros (A & B & C & D). repeat split; symmetry; assumption. Qed.
Lemma meq_trans a b c : meq a b -> meq b c -> meq a c.
Proof. intros (A & B & C & D) (A' & B' & C' & D'). repeat split; etransitivity; eassumption. Qed.

Lemma meq_set_scr d d' : meq d d' <-> d' = set_scr d (d_scr d').
Proof.
  split; [|intros ->; repeat split]. intros (A & B & C & D). destruct d'. cbn in *. subst. reflexivity.
Qed.

Lemma mapply_set_scr d l e : mapply (set_scr d l) e = set_scr (mapply d e) l.
Proof.
  destruct e; cbn [mapply set_scr d_segs d_orph]; try reflexivity;
    destruct (seg_get (d_segs d) b); try reflexivity; destruct (orph_get (d_orph d) b); reflexivity.
Qed.

Lemma mapply_meq d d' e : meq d d' -> meq (mapply d e) (mapply d' e).
Proof. intros H. apply meq_set_scr in H. rewrite H, mapply_set_scr. apply meq_set_scr. reflexivity. Qed.

Lemma mapply_scr d e : d_scr (mapply d e) = d_scr d.
Proof.
  (* a disk is itself with its own scratch files set: then mapply_set_scr *)
  destruct d as [sg o sc h c]. change (mkDisk sg o sc h c) with (set_scr (mkDisk sg o sc h c) sc) at 1.
  rewrite mapply_set_scr. reflexivity.
Qed.

Lemma scr_apply_meq d b s f : meq (scr_apply d b s f) d.
Proof. repeat split. Qed.

(* the effects on a scratch pair write it under its own name, where it is found again *)
Lemma scr_get_apply d b s g h : let y := scr_get (d_scr d) b s in
  scr_get (d_scr (scr_apply d b s (fun x => mkScr b s (g x) (h x)))) b s = mkScr b s (g y) (h y).
Proof.
  unfold scr_apply, set_scr, scr_set, scr_get at 1, scr_is. cbn [d_scr find sc_base sc_suf].
  rewrite Z.eqb_refl. destruct s; reflexivity.
Qed.

(* predicates that do not look at the scratch files *)
Definition main_pred (R : disk -> Prop) : Prop := forall d d', meq d d' -> R d -> R d'.

Definition at_ (D : disk) : disk -> Prop := fun d => meq d D.

Lemma main_at (R : disk -> Prop) D : main_pred R -> R D -> forall d, at_ D d -> R d.
Proof. intros HR HD d Hd. exact (HR D d (meq_sym _ _ Hd) HD). Qed.

Lemma good_meq s d' : Good s -> meq (s_disk s) d' -> Good (mkSt d' (s_hw s)).
Proof.
  intros G (A & B & C & D). split; cbn [s_disk s_hw]; unfold segs_of, content, d_active; rewrite <- ?A, <- ?B, <- ?C, <- ?D; apply G.
Qed.

Lemma mid_meq H : main_pred (Mid H).
Proof.
  intros d d' (A & B & C & D) M. split; unfold segs_of, content; rewrite <- ?A, <- ?C, <- ?D; apply M.
Qed.

Lemma Image_main s o keep : main_pred (Image s o keep).
Proof.
  intros d d' Hm (M & A & B). pose proof Hm as (E1 & _ & _ & _). unfold Image, content in *. rewrite <- E1.
  split; [apply (mid_meq _ d d' Hm M)|split; assumption].
Qed.

Lemma image_bases s o keep d : Image s o keep d -> bases_lt (-1) (map m_seg (d_segs d)).
Proof. intros [M _]. apply (wf_bases _ (mi_wf _ _ M)). Qed.


Lemma seq_main (R : disk -> Prop) e me D D' : main_pred R ->
  (forall d, apply_eff d e = mapply d me) -> meq (mapply D me) D' -> R D -> R D' -> seq R (at_ D) [e] (at_ D').
Proof.
  intros HR He Hm HD HD'. apply seq_one; [exact (main_at R D HR HD)| |exact (main_at R D' HR HD')].
  intros d Hd. unfold at_. rewrite He. eapply meq_trans; [apply mapply_meq; exact Hd|exact Hm].
Qed.

Lemma del_seq (R : disk -> Prop) b D D1 D2 : main_pred R ->
  meq (mapply D (MRemoveLog b)) D1 -> meq (mapply D1 (MRemoveIdx b)) D2 -> R D -> R D1 -> R D2 ->
  seq R (at_ D) (del_effs (TMain b)) (at_ D2).
Proof.
  intros HR H1 H2 RD RD1 RD2.
  apply (seq_cons R _ (at_ D1)); [apply (seq_main R _ (MRemoveLog b)); try assumption; reflexivity|].
  apply seq_cons_point. apply (seq_main R _ (MRemoveIdx b)); try assumption; reflexivity.
Qed.

Definition scr_at (D : disk) (b : Z) (s : suf) (P : scr -> Prop) (d : disk) : Prop :=
  meq d D /\ P (scr_get (d_scr d) b s).

Lemma scr_main (R : disk -> Prop) D b s P : main_pred R -> R D -> forall d, scr_at D b s P d -> R d.
Proof. intros HR HD d [H _]. exact (main_at R D HR HD d H). Qed.

Lemma scr_step (R : disk -> Prop) D b s e g h (P Q : scr -> Prop) : main_pred R -> R D ->
  (forall d, apply_eff d e = scr_apply d b s (fun x => mkScr b s (g x) (h x))) ->
  (forall y, P y -> Q (mkScr b s (g y) (h y))) -> seq R (scr_at D b s P) [e] (scr_at D b s Q).
Proof.
  intros HR HD He HPQ. apply seq_one; [exact (scr_main R D b s _ HR HD)| |exact (scr_main R D b s _ HR HD)].
  intros d [H Hp]. rewrite He. split; [eapply meq_trans; [apply scr_apply_meq|exact H]|].
  rewrite scr_get_apply. apply HPQ, Hp.
Qed.

(* copying frame by frame: the scratch pair holds exactly the frames copied so far *)
Lemma copy_seq (R : disk -> Prop) D b s l : main_pred R -> R D ->
  seq R (scr_at D b s (eq (mkScr b s (Some []) (Some [])))) (copy_effs (TScr b s) l) (scr_at D b s (eq (mkScr b s (Some l) (Some l)))).
Proof.
  intros HR RD. apply (seq_foreach R _ (fun d _ => scr_at D b s (eq (mkScr b s (Some d) (Some d)))) l []).
  - intros d x t _. apply (seq_cons R _ (scr_at D b s (eq (mkScr b s (Some (d ++ [x])) (Some d))))).
    + eapply scr_step; [exact HR|exact RD|reflexivity|intros y <-; reflexivity].
    + apply seq_cons_point. eapply scr_step; [exact HR|exact RD|reflexivity|intros y <-; reflexivity].
  - exact (scr_main R D b s _ HR RD).
Qed.

Section Replace.
  Variable R : disk -> Prop.
  Hypothesis HR : main_pred R.
  Variables (b : Z) (sfx : suf) (nf : list rec) (pc : pname).
  Variables D DL DI : disk.
  Hypothesis RD : R D.
  Hypothesis RDL : R DL.
  Hypothesis RDI : R DI.
  Hypothesis HL : meq (mapply D (MSetLog b nf)) DL.
  Hypothesis HI : meq (mapply DL (MSetIdx b nf)) DI.

  Lemma replace_seq : seq R (at_ D) (replace_effs fixed sfx b nf pc) (at_ DI).
  Proof.
    unfold replace_effs. cbn [v_fresh fixed app].
    apply (seq_conseq R (scr_at D b sfx (fun _ => True)) _ (at_ DI) _); [intros d H; split; [exact H|exact I]|auto|].
    apply (seq_cons R _ (scr_at D b sfx (fun y => sc_log y = None))).
    { eapply scr_step; [exact HR|exact RD|reflexivity|reflexivity]. }
    apply (seq_cons R _ (scr_at D b sfx (eq (mkScr b sfx None None)))).
    { eapply scr_step; [exact HR|exact RD|reflexivity|intros y E; cbn beta; rewrite E; reflexivity]. }
    apply (seq_cons R _ (scr_at D b sfx (eq (mkScr b sfx (Some []) None)))).
    { eapply scr_step; [exact HR|exact RD|reflexivity|intros y <-; reflexivity]. }
    apply (seq_cons R _ (scr_at D b sfx (eq (mkScr b sfx (Some []) (Some []))))).
    { eapply scr_step; [exact HR|exact RD|reflexivity|intros y <-; reflexivity]. }
    apply (seq_app R _ _ (scr_at D b sfx (eq (mkScr b sfx (Some nf) (Some nf))))); [apply copy_seq; [exact HR|exact RD]|].
    apply seq_cons_point, seq_cons_point.
    apply (seq_cons R _ (scr_at DL b sfx (eq (mkScr b sfx None (Some nf))))).
    { apply seq_one; [exact (scr_main R D b sfx _ HR RD)| |exact (scr_main R DL b sfx _ HR RDL)].
      intros d [H E]. cbn [apply_eff]. rewrite <- E. cbn [sc_log]. split.
      - eapply meq_trans; [apply scr_apply_meq|]. eapply meq_trans; [apply mapply_meq; exact H|exact HL].
      - rewrite scr_get_apply, mapply_scr, <- E. reflexivity. }
    apply seq_cons_point. apply (seq_cons R _ (at_ DI)); [|apply seq_cons_point, seq_nil, main_at; [exact HR|exact RDI]].
    apply seq_one; [exact (scr_main R DL b sfx _ HR RDL)| |exact (main_at R DI HR RDI)].
    intros d [H E]. cbn [apply_eff]. rewrite <- E. cbn [sc_idx]. unfold at_.
    eapply meq_trans; [apply scr_apply_meq|]. eapply meq_trans; [apply mapply_meq; exact H|exact HI].
  Qed.
End Replace.

(* deleting, and replacing, the segment in the middle of a list, when every state on the way is a crash
   image (which makes the bases distinct) *)
Lemma del_mid_seq s o keep front x rest scr hw c : let R := Image s o keep in
  R (mkDisk (front ++ x :: rest) [] scr hw c) -> (forall orph, R (mkDisk (front ++ rest) orph scr hw c)) ->
  seq R (at_ (mkDisk (front ++ x :: rest) [] scr hw c)) (del_effs (TMain (m_base x))) (at_ (mkDisk (front ++ rest) [] scr hw c)).
Proof.
  intros R R0 R1. destruct (bases_distinct _ _ _ _ (image_bases _ _ _ _ R0)) as [Hf Hr].
  apply (del_seq R (m_base x) _ (mkDisk (front ++ rest) (match m_idx x with Some fi => [(m_base x, fi)] | None => [] end) scr hw c));
    [apply Image_main| | |exact R0|apply R1|apply R1]; cbn [mapply d_segs d_orph].
  - rewrite seg_get_mid by exact Hf. unfold with_main. cbn [d_scr d_hw d_ep]. rewrite seg_del_mid by exact Hf. apply meq_refl.
  - assert (Hnone : seg_get (front ++ rest) (m_base x) = None).
    { apply seg_get_none_notin. intros m Hm. apply in_app_or in Hm. destruct Hm as [Hm|Hm]; [apply Hf|apply Hr]; exact Hm. }
    rewrite Hnone. unfold with_main, orph_del. cbn [d_segs d_scr d_hw d_ep]. destruct (m_idx x); cbn [filter fst]; rewrite ?Z.eqb_refl; apply meq_refl.
Qed.

Lemma replace_mid_seq s o keep front x rest scr hw c sfx nf pc : let R := Image s o keep in
  R (mkDisk (front ++ x :: rest) [] scr hw c) ->
  R (mkDisk (front ++ mkM (mkSeg (m_base x) nf) (m_idx x) :: rest) [] scr hw c) ->
  R (mkDisk (front ++ mkM (mkSeg (m_base x) nf) (Some nf) :: rest) [] scr hw c) ->
  seq R (at_ (mkDisk (front ++ x :: rest) [] scr hw c)) (replace_effs fixed sfx (m_base x) nf pc)
      (at_ (mkDisk (front ++ mkM (mkSeg (m_base x) nf) (Some nf) :: rest) [] scr hw c)).
Proof.
  intros R R0 RL RI. destruct (bases_distinct _ _ _ _ (image_bases _ _ _ _ R0)) as [Hf _].
  apply (replace_seq R (Image_main s o keep) (m_base x) sfx nf pc _ _ _ R0 RL RI); cbn [mapply d_segs d_orph].
  - rewrite seg_get_mid by exact Hf. unfold set_segs. cbn [d_segs d_orph d_scr d_hw d_ep]. rewrite seg_upd_mid by exact Hf. apply meq_refl.
  - set (xL := mkM (mkSeg (m_base x) nf) (m_idx x)). change (m_base x) with (m_base xL).
    rewrite seg_get_mid by exact Hf. unfold set_segs. cbn [d_segs d_orph d_scr d_hw d_ep]. rewrite seg_upd_mid by exact Hf. apply meq_refl.
Qed.

Definition is_scratch (e : eff) : bool :=
  match e with
  | FCreateLog (TScr _ _) | FCreateIdx (TScr _ _) | FAppendLog (TScr _ _) _ | FAppendIdx (TScr _ _) _
  | FRemoveLog (TScr _ _) | FRemoveIdx (TScr _ _) | FPoint _ => true
  | _ => false
  end.

Lemma scratch_meq d e : is_scratch e = true -> meq (apply_eff d e) d.
Proof.
  destruct e as [[b|b s]|[b|b s]|[b|b s] rs|[b|b s] rs|[b|b s]|[b|b s]|b s|b s|h|c|pn]; cbn [is_scratch]; try discriminate; intros _;
    cbn [apply_eff]; try apply scr_apply_meq; apply meq_refl.
Qed.

Lemma seq_scratch (R : disk -> Prop) D es : main_pred R -> R D -> forallb is_scratch es = true -> seq R (at_ D) es (at_ D).
Proof.
  intros HR RD Hall. apply seq_each; [exact (main_at R D HR RD)|].
  intros e He d Hd. rewrite forallb_forall in Hall. eapply meq_trans; [apply scratch_meq; apply Hall; exact He|exact Hd].
Qed.
