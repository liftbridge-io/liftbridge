(* Concrete histories for the crash model, evaluated by the kernel. The histories on which the pinned
   commit fails (the failures are stated in Properties/C05.v; the C05 driver reports the same ones on the
   pinned code, known_findings.json) come out right with every repair on; and the premises of the safety
   theorems, hist_ok and thist_ok, are met by a history with crashes and by two with a torn write. *)
From LB Require Import Base.Prelude Log.Model Log.Retention Log.Compact Codec.Message Log.Proofs Log.Disk Log.DiskBase Log.DiskProofs
  Log.DiskBlocks Log.DiskTrunc Log.DiskClean Log.DiskCleanOp Log.DiskSafety Log.DiskTear Log.DiskTorn Log.DiskRecover Log.DiskRecoverProofs.
Open Scope Z_scope.

Definition P1000 : params := mkP 1000 (mkLimits 0 0 0) false.
Definition P30 : params := mkP 30 (mkLimits 0 0 0) false.
Definition msg1 (e : N) : msg := mkMsg 10 e [1; 2; 3]%N (-1).
Definition offsets_of (o : option st) : list Z := match o with Some s => map r_off (content (s_disk s)) | None => [] end.

(* the histories that refute the pinned commit (Properties/C05.v), on the current tree *)
Lemma fixed_histories_fine :
  offsets_of (run key_of fixed P1000 [HDo (DAppend [msg1 1]); HCrash (DAppend [msg1 1]) 2; HDo (DAppend [msg1 1])]) = [0; 1; 2] /\
  offsets_of (run key_of fixed P30 [HCrash (DAppend [msg1 1]) 3; HDo (DAppend [msg1 1])]) = [0; 1] /\
  offsets_of (run key_of fixed P1000 [HDo (DAppend [msg1 1; msg1 1; msg1 1]); HCrash (DTrunc 2) 8; HDo (DTrunc 2)]) = [0; 1].
Proof. vm_compute. repeat split; reflexivity. Qed.

(* premises are satisfiable: a history with a roll, crashes in an append, a truncation and a clean *)
Definition sample_history : list hstep :=
  [HDo (DAppend [msg1 1; msg1 1]); HCrash (DAppend [msg1 2]) 3; HDo (DAppend [msg1 2]); HDo (DEpoch 3);
   HCrash (DTrunc 2) 9; HDo (DSetHw 1); HCrash (DClean 0) 1; HDo DReopen].

Lemma sample_history_ok : exists s0, init key_of fixed P30 = Some s0 /\ hist_ok key_of P30 s0 sample_history /\
  offsets_of (fold_left (hstep_run key_of fixed P30) sample_history (Some s0)) = [0; 1].
Proof.
  eexists. split; [reflexivity|]. split; [|vm_compute; reflexivity].
  (* step by step: the appends carry a non-empty batch whose epochs do not go down; the other
     operations have no premise *)
  do 3 (eapply hist_ok_cons; [split; [discriminate|cbn; lia]|vm_compute; reflexivity|]).
  do 5 (eapply hist_ok_cons; [exact I|vm_compute; reflexivity|]).
  exact I.
Qed.

(* the second append (two messages) dies inside write(2): the first frame and 5 bytes of the second
   are in the log file. Reopened, the log holds offsets 0 and 1; the next append gets offset 2. When
   it dies inside the store of the two index entries (one whole entry and a partial one whose
   position+size read 41) the log file holds the whole batch: offsets 0, 1, 2, and the next append
   gets 3 (C05_torn_examples). *)
Definition torn_history (n : nat) (z : Z) : list tstep :=
  [TStep (HDo (DAppend [msg1 1])); TTorn (DAppend [msg1 1; msg1 1]) n 1 (Some z); TStep (HDo (DAppend [msg1 1]))].

(* the premises of the torn-write theorems are satisfiable *)
Lemma torn_history_ok : exists s0, init key_of fixed P1000 = Some s0 /\ thist_ok key_of P1000 s0 (torn_history 1 5) /\ thist_ok key_of P1000 s0 (torn_history 3 41).
Proof.
  eexists. split; [reflexivity|]. split.
  all: eapply thist_ok_cons; [split; [discriminate|cbn; lia]|vm_compute; reflexivity|].
  (* the torn append: the effect that is torn and the directory it leaves are computed; tear_ok is
     a comparison of numbers *)
  all: eapply thist_ok_cons; [split; [split; [discriminate|cbn; lia]|eexists; eexists; split; [vm_compute; reflexivity|vm_compute; repeat split; intros; discriminate]]|vm_compute; reflexivity|].
  all: eapply thist_ok_cons; [split; [discriminate|cbn; lia]|vm_compute; reflexivity|exact I].
Qed.
