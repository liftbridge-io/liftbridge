(* Crash safety of Clean -- retention (whole segments deleted, the age limit oldest first, the
   message and byte limits newest first) and compaction (segments rewritten one by one) -- after
   what truncation, retention and compaction share: every state they pass through holds a
   sub-list of the segments, some of them with fewer records (`msub`), and every such state is an
   admissible crash image as long as it keeps what must be kept (`shrunk_image`). *)
From LB Require Import Base.Prelude Log.Model Log.Retention Log.Compact Log.Proofs Log.Refine Log.RetentionProofs
  Log.Disk Log.DiskBase Log.DiskProofs Log.DiskBlocks.
From Coq Require Import ZifyBool.
Open Scope Z_scope.

Lemma suffix_msegs r l : is_suffix_keeping_last r (map m_seg l) ->
  exists a b, l = a ++ b /\ map m_seg b = r /\ dropped (map m_seg l) r = map m_seg a /\ (l <> [] -> b <> []).
Proof.
  intros H. apply suffix_iff in H. destruct H as (p & E & Hne). destruct (map_eq_app _ _ _ _ E) as (a & b & -> & <- & <-).
  exists a, b. split; [reflexivity|]. split; [reflexivity|]. split.
  - unfold dropped. rewrite E, app_length, Nat.add_sub, <- (Nat.add_0_r (length (map m_seg a))), firstn_app_2. apply app_nil_r.
  - intros Hl ->. apply Hne; [|reflexivity]. intros Em. apply map_eq_nil in Em. exact (Hl Em).
Qed.

Inductive ssub : list seg -> list seg -> Prop :=
| ss_nil : ssub [] []
| ss_drop sg l l' : ssub l l' -> ssub l (sg :: l')
| ss_keep sg sg' l l' : s_base sg' = s_base sg -> subseq (s_recs sg') (s_recs sg) -> ssub l l' -> ssub (sg' :: l) (sg :: l').

Lemma ssub_in l' l : ssub l' l -> forall sg', In sg' l' -> exists sg, In sg l /\ s_base sg' = s_base sg /\ subseq (s_recs sg') (s_recs sg).
Proof.
  induction 1 as [|sg l l' _ IH|sg sg0 l l' Hb Hs _ IH]; intros x Hx; [destruct Hx| |].
  - destruct (IH x Hx) as (y & Hy & A & B). exists y. split; [right; exact Hy|split; assumption].
  - destruct Hx as [<-|Hx]; [exists sg; split; [left; reflexivity|split; assumption]|].
    destruct (IH x Hx) as (y & Hy & A & B). exists y. split; [right; exact Hy|split; assumption].
Qed.

Lemma ssub_bases l' l : ssub l' l -> forall lo, bases_lt lo l -> bases_lt lo l'.
Proof.
  induction 1 as [|sg l l' _ IH|sg sg0 l l' Hb Hs _ IH]; intros lo B; [exact I| |].
  - destruct B as [B1 B2]. apply IH. eapply bases_lt_weaken; [|exact B2]. lia.
  - destruct B as [B1 B2]. split; [lia|]. rewrite Hb. apply IH. exact B2.
Qed.

Lemma WF_ssub l' l : ssub l' l -> WF l -> WF l'.
Proof.
  intros Hs Hw. split.
  - apply (ssub_bases _ _ Hs). apply (wf_bases _ Hw).
  - intros x Hx. destruct (ssub_in _ _ Hs x Hx) as (y & Hy & A & B). rewrite A. apply (sorted_from_subseq _ _ B). apply (wf_sorted _ Hw). exact Hy.
  - intros x1 x2 H1 H2 Hlt r Hr. destruct (ssub_in _ _ Hs x1 H1) as (y1 & Hy1 & A1 & B1). destruct (ssub_in _ _ Hs x2 H2) as (y2 & Hy2 & A2 & B2).
    rewrite A2. apply (wf_below _ Hw y1 y2 Hy1 Hy2); [lia|]. apply (subseq_incl _ _ B1). exact Hr.
Qed.

Lemma ssub_refl l : ssub l l.
Proof. induction l; constructor; try reflexivity; [apply subseq_refl|assumption]. Qed.

Lemma ssub_app a a' b b' : ssub a a' -> ssub b b' -> ssub (a ++ b) (a' ++ b').
Proof. induction 1; intros Hb; cbn [app]; [exact Hb|apply ss_drop; auto|apply ss_keep; auto]. Qed.

(* on the disk a segment is untouched, gone, or rewritten with fewer records, its index
   the old one (the log file has been renamed into place, the index not yet) or the new one *)
Inductive msub : list mseg -> list mseg -> Prop :=
| ms_nil : msub [] []
| ms_same m l l' : msub l l' -> msub (m :: l) (m :: l')
| ms_drop m l l' : msub l l' -> msub l (m :: l')
| ms_repl m nf fi l l' : subseq nf (m_recs m) -> fi = m_recs m \/ fi = nf -> msub l l' ->
    msub (mkM (mkSeg (m_base m) nf) (Some fi) :: l) (m :: l').

Lemma msub_refl l : msub l l.
Proof. induction l; constructor; assumption. Qed.

Lemma msub_nil l : msub [] l.
Proof. induction l; constructor; assumption. Qed.

Lemma msub_app a a' b b' : msub a a' -> msub b b' -> msub (a ++ b) (a' ++ b').
Proof. induction 1; intros Hb; cbn [app]; [exact Hb|apply ms_same; auto|apply ms_drop; auto|apply ms_repl; auto]. Qed.

Lemma subseq_msub l' l : subseq l' l -> msub l' l.
Proof. induction 1; constructor; assumption. Qed.

Lemma msub_ssub cur orig : msub cur orig -> ssub (map m_seg cur) (map m_seg orig).
Proof.
  induction 1; cbn [map]; [constructor|apply ss_keep; [reflexivity|apply subseq_refl|assumption]|apply ss_drop; assumption|].
  apply ss_keep; [reflexivity|assumption|assumption].
Qed.

Lemma msub_incl cur orig : msub cur orig -> incl (mrecs cur) (mrecs orig).
Proof.
  unfold mrecs. induction 1 as [|m l l' _ IH|m l l' _ IH|m nf fi l l' Hnf _ _ IH]; intros x Hx; cbn [map concat] in *; [exact Hx| | |].
  - apply in_app_or in Hx. apply in_or_app. destruct Hx as [Hx|Hx]; [left; exact Hx|right; apply IH; exact Hx].
  - apply in_or_app. right. apply IH. exact Hx.
  - apply in_app_or in Hx. apply in_or_app. destruct Hx as [Hx|Hx]; [left; apply (subseq_incl _ _ Hnf); exact Hx|right; apply IH; exact Hx].
Qed.

Lemma msub_fixable cur orig : msub cur orig -> (forall m, In m orig -> m_idx m = Some (m_recs m)) -> forall m, In m cur -> fixable m.
Proof.
  induction 1 as [|m0 l l' _ IH|m0 l l' _ IH|m0 nf fi l l' Hnf Hfi _ IH]; intros Hidx m Hm; [destruct Hm| | |].
  - destruct Hm as [<-|Hm]; [apply idx_fixable, Hidx; left; reflexivity|].
    apply IH; [intros m' Hm'; apply Hidx; right; exact Hm'|exact Hm].
  - apply IH; [intros m' Hm'; apply Hidx; right; exact Hm'|exact Hm].
  - destruct Hm as [<-|Hm]; [|apply IH; [intros m' Hm'; apply Hidx; right; exact Hm'|exact Hm]].
    destruct Hfi as [-> | ->]; [exact (fixable_shrunk _ _ _ Hnf)|exact (fixable_shrunk _ _ _ (subseq_refl _))].
Qed.

Lemma shrunk_image s o (K : rec -> Prop) cur orph scr c : Good s -> msub cur (d_segs (s_disk s)) ->
  (forall x, In x (content (s_disk s)) -> K x -> In x (mrecs cur)) -> csorted c -> cmatch c (mrecs cur) ->
  Image s o K (mkDisk cur orph scr (d_hw (s_disk s)) c).
Proof.
  intros G Hm HK Hcs Hcm. split; [|split; [|exact HK]].
  - split; [exact (msub_fixable _ _ Hm (g_idx _ G))|exact (WF_ssub _ _ (msub_ssub _ _ Hm) (g_wf _ G))|exact Hcs|exact Hcm|exact (g_hw _ G)].
  - intros x Hx. left. apply (msub_incl _ _ Hm). exact Hx.
Qed.

Lemma old_cache_fits s cur : Good s -> msub cur (d_segs (s_disk s)) -> cmatch (d_ep (s_disk s)) (mrecs cur).
Proof. intros G Hm x Hx. apply (g_cmatch _ G). apply (msub_incl _ _ Hm). exact Hx. Qed.

Definition nonempty {A} (l : list A) : bool := match l with [] => false | _ => true end.

Section Clean.
  Variable s : st.
  Hypothesis G : Good s.
  Variable ttl : Z.
  Variable K : rec -> Prop.

  Let d0 := s_disk s.
  Let c0 := d_ep d0.
  Let R := Image s (DClean ttl) K.

  Definition cmk (segs : list mseg) (orph : list (Z * list rec)) (c : epoch_cache) : disk :=
    mkDisk segs orph (d_scr d0) (d_hw d0) c.

  Definition keeps (segs' : list mseg) : Prop := forall m x, In m (d_segs d0) -> In x (m_recs m) -> K x -> In m segs'.

  Lemma keeps_content segs' : keeps segs' -> forall x, In x (content d0) -> K x -> In x (mrecs segs').
  Proof.
    intros Hk x Hx HK. apply in_mrecs in Hx. destruct Hx as (m & Hm & Hx). apply in_mrecs. exists m. split; [apply (Hk m x Hm Hx HK)|exact Hx].
  Qed.

  Lemma csub_image segs' orph : subseq segs' (d_segs d0) -> keeps segs' -> R (cmk segs' orph c0).
  Proof.
    intros Hsub Hkeep. pose proof (subseq_msub _ _ Hsub) as Hm.
    apply shrunk_image; [exact G|exact Hm|apply keeps_content; exact Hkeep|apply (g_csorted _ G)|apply old_cache_fits; [exact G|exact Hm]].
  Qed.

  Lemma keeps_app a b : keeps b -> keeps (a ++ b).
  Proof. intros H m x Hm Hx HK. apply in_or_app. right. apply (H m x Hm Hx HK). Qed.

  Lemma del_one front x rest : subseq (front ++ x :: rest) (d_segs d0) -> keeps (front ++ rest) ->
    seq R (at_ (cmk (front ++ x :: rest) [] c0)) (clean_del (m_seg x)) (at_ (cmk (front ++ rest) [] c0)).
  Proof.
    intros Hsub Hk.
    assert (Hsub2 : subseq (front ++ rest) (front ++ x :: rest)) by (apply subseq_app2, sub_skip, subseq_refl).
    assert (R0 : R (cmk (front ++ x :: rest) [] c0)).
    { apply csub_image; [exact Hsub|]. intros m y Hm Hy HK. apply (subseq_incl _ _ Hsub2). apply (Hk m y Hm Hy HK). }
    apply seq_cons_point, del_mid_seq; [exact R0|].
    intros orph. apply csub_image; [apply (subseq_trans _ _ _ Hsub2 Hsub)|exact Hk].
  Qed.

  Lemma dels_asc A : forall rest, subseq (A ++ rest) (d_segs d0) -> keeps rest ->
    seq R (at_ (cmk (A ++ rest) [] c0)) (concat (map clean_del (map m_seg A))) (at_ (cmk rest [] c0)).
  Proof using G.
    induction A as [|x A' IH]; intros rest Hsub Hk.
    - apply seq_nil. apply main_at; [apply Image_main|apply csub_image; assumption].
    - cbn [map concat app]. apply (seq_app R _ _ (at_ (cmk (A' ++ rest) [] c0))).
      + apply (del_one [] x (A' ++ rest)); [exact Hsub|cbn [app]; apply keeps_app; exact Hk].
      + apply IH; [|exact Hk]. eapply subseq_trans; [|exact Hsub]. cbn [app]. apply sub_skip. apply subseq_refl.
  Qed.

  Lemma dels_desc B : forall rest, subseq (B ++ rest) (d_segs d0) -> keeps rest ->
    seq R (at_ (cmk (B ++ rest) [] c0)) (concat (map clean_del (rev (map m_seg B)))) (at_ (cmk rest [] c0)).
  Proof using G.
    induction B as [|x B' IH] using rev_ind; intros rest Hsub Hk.
    - apply seq_nil. apply main_at; [apply Image_main|apply csub_image; assumption].
    - rewrite map_app, rev_app_distr. cbn [map rev app concat].
      rewrite <- app_assoc in Hsub. cbn [app] in Hsub. rewrite <- app_assoc. cbn [app].
      apply (seq_app R _ _ (at_ (cmk (B' ++ rest) [] c0))).
      + apply (del_one B' x rest); [exact Hsub|apply keeps_app; exact Hk].
      + apply IH; [|exact Hk]. eapply subseq_trans; [|exact Hsub]. apply subseq_app2. apply sub_skip. apply subseq_refl.
  Qed.

  Variable lim : limits.
  Let S0 := segs_of d0.

  (* a record to keep cannot lie in a segment cut off in front: it would be below the first base left *)
  Lemma keeps_suffix gone rest : d_segs d0 = gone ++ rest ->
    (forall x, In x (content d0) -> K x -> In x (mrecs rest)) -> keeps rest.
  Proof.
    intros E HK m x Hm Hx Hk.
    assert (Hc : In x (content d0)) by (apply in_mrecs; exists m; split; assumption).
    rewrite E in Hm. apply in_app_or in Hm. destruct Hm as [Hm|Hm]; [exfalso|exact Hm].
    apply HK, in_mrecs in Hc; [|exact Hk]. destruct Hc as (m' & Hm' & Hx').
    pose proof (g_wf _ G) as Hw. unfold segs_of in Hw. fold d0 in Hw. rewrite E, map_app in Hw.
    apply WF_app in Hw. destruct Hw as (_ & Wb & Hab).
    destruct (Hab _ _ (in_map m_seg _ _ Hm) (in_map m_seg _ _ Hm')) as [_ Hlt].
    pose proof (WF_range _ _ x Wb (in_map m_seg _ _ Hm') Hx'). specialize (Hlt x Hx). lia.
  Qed.

  Lemma retention_seq :
    (forall x, In x (content d0) -> K x -> In x (flat (snd (retention_effs lim ttl S0)))) ->
    exists gone rest3, d_segs d0 = gone ++ rest3 /\ map m_seg rest3 = snd (retention_effs lim ttl S0) /\ rest3 <> [] /\ keeps rest3 /\
      seq R (at_ (cmk (d_segs d0) [] c0)) (fst (retention_effs lim ttl S0)) (at_ (cmk rest3 [] c0)).
  Proof.
    intros HK. destruct (retain_stages lim ttl S0) as (s1 & s2 & D1 & D2 & D3 & H1 & H2 & H3). set (s3 := retain lim ttl S0) in *.
    assert (Er : retention_effs lim ttl S0 = (concat (map clean_del (dropped S0 s1)) ++ concat (map clean_del (rev (dropped s1 s2)))
                                               ++ concat (map clean_del (rev (dropped s2 s3))), s3)) by (rewrite D3; subst s1 s2; reflexivity).
    rewrite Er in *. cbn [fst snd] in *. clear Er D1 D2 D3.
    destruct (suffix_msegs s1 (d_segs d0) H1) as (A & rest1 & E1 & M1 & D1 & N1).
    rewrite <- M1 in H2. destruct (suffix_msegs s2 rest1 H2) as (B & rest2 & E2 & M2 & D2 & N2).
    rewrite <- M2 in H3. destruct (suffix_msegs s3 rest2 H3) as (C & rest3 & E3 & M3 & D3 & N3).
    exists (A ++ B ++ C), rest3. subst rest1 rest2.
    assert (Esegs : d_segs d0 = (A ++ B ++ C) ++ rest3) by (rewrite E1, <- !app_assoc; reflexivity).
    assert (Hne3 : rest3 <> []) by (apply N3, N2, N1; apply (g_ne _ G)).
    assert (Hk3 : keeps rest3) by (apply (keeps_suffix _ _ Esegs); rewrite mrecs_flat, M3; exact HK).
    split; [exact Esegs|]. split; [exact M3|]. split; [exact Hne3|]. split; [exact Hk3|].
    rewrite M1 in D2. rewrite M2 in D3. rewrite (D1 : dropped S0 s1 = _), D2, D3.
    apply (seq_app R _ _ (at_ (cmk (B ++ C ++ rest3) [] c0))).
    { rewrite E1. apply dels_asc; [rewrite <- E1; apply subseq_refl|]. apply keeps_app, keeps_app. exact Hk3. }
    apply (seq_app R _ _ (at_ (cmk (C ++ rest3) [] c0))).
    { apply dels_desc; [rewrite E1; apply subseq_suffix|]. apply keeps_app. exact Hk3. }
    apply dels_desc; [rewrite E1; eapply subseq_trans; [apply subseq_suffix|apply subseq_suffix]|exact Hk3].
  Qed.
End Clean.

Lemma start_at s : Good s -> forall d, at_ (s_disk s) d -> at_ (cmk s (d_segs (s_disk s)) [] (d_ep (s_disk s))) d.
Proof. intros G d Hd. eapply meq_trans; [exact Hd|]. repeat split. apply (g_orph _ G). Qed.

Section Compaction.
  Variable key_of : bytes -> option bytes.
  Variable s : st.
  Hypothesis G : Good s.
  Variable ttl : Z.
  Variable K : rec -> Prop.
  Variables (gone body : list mseg) (lastm : mseg).
  Hypothesis Hsegs : d_segs (s_disk s) = gone ++ body ++ [lastm].

  Let d0 := s_disk s.
  Let c0 := d_ep d0.
  Let hw := s_hw s.
  Let R := Image s (DClean ttl) K.
  Let all := concat (map s_recs (map m_seg (body ++ [lastm]))).
  Let ret := retained key_of false hw all.

  Definition nfm (m : mseg) : list rec := filter ret (m_recs m).
  Definition finalform (m : mseg) : mseg := mkM (mkSeg (m_base m) (nfm m)) (Some (nfm m)).
  Definition done_of (l : list mseg) : list mseg := map finalform (filter (fun m => nonempty (nfm m)) l).

  Hypothesis HK : forall x, In x (content d0) -> K x -> In x (m_recs lastm) \/ (ret x = true /\ In x (concat (map m_recs body))).

  (* a state of the rewriting: every segment untouched, rewritten (with the old or the new index), or
     gone because nothing of it is retained *)
  Inductive btw : list mseg -> list mseg -> Prop :=
  | bt_nil : btw [] []
  | bt_same m l l' : btw l l' -> btw (m :: l) (m :: l')
  | bt_repl m fi l l' : fi = m_recs m \/ fi = nfm m -> btw l l' -> btw (mkM (mkSeg (m_base m) (nfm m)) (Some fi) :: l) (m :: l')
  | bt_drop m l l' : nfm m = [] -> btw l l' -> btw l (m :: l').

  Lemma btw_refl l : btw l l.
  Proof. induction l; constructor; assumption. Qed.

  Lemma btw_app a a' b b' : btw a a' -> btw b b' -> btw (a ++ b) (a' ++ b').
  Proof. induction 1; intros Hb; cbn [app]; [exact Hb|apply bt_same; auto|apply bt_repl; auto|apply bt_drop; auto]. Qed.

  Lemma btw_done l : btw (done_of l) l.
  Proof.
    induction l as [|m t IH]; [constructor|]. unfold done_of. cbn [filter]. destruct (nfm m) eqn:E; cbn [nonempty].
    - apply bt_drop; [exact E|exact IH].
    - cbn [map]. unfold finalform at 1. apply bt_repl; [right; reflexivity|exact IH].
  Qed.

  Lemma btw_msub cur orig : btw cur orig -> msub cur orig.
  Proof.
    induction 1; [apply ms_nil|apply ms_same; assumption|apply ms_repl; [apply filter_subseq|assumption|assumption]|apply ms_drop; assumption].
  Qed.

  Lemma btw_keeps cur orig : btw cur orig -> forall x, In x (concat (map m_recs orig)) -> ret x = true -> In x (concat (map m_recs cur)).
  Proof.
    induction 1 as [|m0 l l' _ IH|m0 fi l l' Hfi _ IH|m0 l l' Hn _ IH]; intros x Hx Hr; cbn [map concat] in *; [exact Hx| | |].
    - apply in_app_or in Hx. apply in_or_app. destruct Hx as [Hx|Hx]; [left; exact Hx|right; apply IH; assumption].
    - apply in_app_or in Hx. apply in_or_app. destruct Hx as [Hx|Hx]; [left|right; apply IH; assumption].
      cbn [m_recs m_seg s_recs]. unfold nfm. apply filter_In. split; assumption.
    - apply in_app_or in Hx. destruct Hx as [Hx|Hx]; [|apply IH; assumption].
      exfalso. assert (In x (nfm m0)) by (unfold nfm; apply filter_In; split; assumption). rewrite Hn in H. destruct H.
  Qed.

  Lemma last_in : In lastm (d_segs d0).
  Proof using Hsegs. unfold d0. rewrite Hsegs, app_assoc. apply in_elt. Qed.

  Lemma btw_segs cur : btw cur body -> msub (cur ++ [lastm]) (d_segs d0).
  Proof.
    intros Hb. unfold d0. rewrite Hsegs. apply (msub_app [] gone); [apply msub_nil|]. apply msub_app; [apply btw_msub; exact Hb|apply msub_refl].
  Qed.

  Lemma comp_image cur orph c : btw cur body -> csorted c -> cmatch c (mrecs (cur ++ [lastm])) -> R (cmk s (cur ++ [lastm]) orph c).
  Proof.
    intros Hb Hcs Hcm. apply shrunk_image; [exact G|apply btw_segs; exact Hb| |exact Hcs|exact Hcm].
    intros x Hx Hk. rewrite mrecs_app. apply in_or_app.
    destruct (HK x Hx Hk) as [Hl|[Hr Hb']]; [right; unfold mrecs; cbn [map concat]; rewrite app_nil_r; exact Hl|left; apply (btw_keeps _ _ Hb x Hb' Hr)].
  Qed.

  Lemma c0_fits cur : btw cur body -> cmatch c0 (mrecs (cur ++ [lastm])).
  Proof. intros Hb. apply old_cache_fits; [exact G|apply btw_segs; exact Hb]. Qed.

  Lemma done_snoc l m : done_of (l ++ [m]) = done_of l ++ (if nonempty (nfm m) then [finalform m] else []).
  Proof. unfold done_of. rewrite filter_app, map_app. cbn [filter]. destruct (nonempty (nfm m)); reflexivity. Qed.

  Lemma compact_step d m t : body = d ++ m :: t ->
    seq R (at_ (cmk s (done_of d ++ (m :: t) ++ [lastm]) [] c0)) (compact_one key_of fixed hw all (m_seg m))
        (at_ (cmk s (done_of (d ++ [m]) ++ t ++ [lastm]) [] c0)).
  Proof.
    intros E. set (front := done_of d). set (rest := t ++ [lastm]).
    assert (Hst : forall X orph, btw X [m] -> R (cmk s (front ++ X ++ rest) orph c0)).
    { intros X orph HX. assert (Hb : btw (front ++ X ++ t) body) by (rewrite E; apply btw_app; [apply btw_done|apply (btw_app X [m]); [exact HX|apply btw_refl]]).
      unfold rest. rewrite (app_assoc X), (app_assoc front).
      apply comp_image; [exact Hb|apply (g_csorted _ G)|apply c0_fits; exact Hb]. }
    assert (R0 : R (cmk s (front ++ m :: rest) [] c0)) by (apply (Hst [m]), bt_same, bt_nil).
    rewrite done_snoc. fold front. unfold compact_one. change (filter (retained key_of false hw all) (s_recs (m_seg m))) with (nfm m). cbv zeta.
    destruct (nfm m) as [|r0 nf'] eqn:En; cbn [nonempty].
    - (* nothing retained: an empty copy is made and removed among the scratch files, then the segment is deleted *)
      rewrite app_nil_r, 2 (app_assoc (A:=eff)). apply (seq_app R _ _ (at_ (cmk s (front ++ m :: rest) [] c0))); [apply seq_scratch; [apply Image_main|exact R0|reflexivity]|].
      apply del_mid_seq; [exact R0|].
      intros orph. apply (Hst []), bt_drop; [exact En|apply bt_nil].
    - rewrite <- En, <- (app_assoc front).
      apply (replace_mid_seq s (DClean ttl) K front m rest); [exact R0| |].
      + rewrite (g_idx _ G m) by (unfold d0 in *; rewrite Hsegs, E; apply in_or_app; right; rewrite <- app_assoc; apply in_elt).
        apply (Hst [mkM (mkSeg (m_base m) (nfm m)) (Some (m_recs m))]), bt_repl; [left; reflexivity|apply bt_nil].
      + apply (Hst [finalform m]), bt_repl; [right; reflexivity|apply bt_nil].
  Qed.

  Lemma compact_loop todo : forall processed, body = processed ++ todo ->
    seq R (at_ (cmk s (done_of processed ++ todo ++ [lastm]) [] c0))
        (concat (map (compact_one key_of fixed hw all) (map m_seg todo)))
        (at_ (cmk s (done_of body ++ [lastm]) [] c0)).
  Proof using G Hsegs HK.
    intros processed E. rewrite map_map, E.
    apply (seq_foreach R (fun m => compact_one key_of fixed hw all (m_seg m)) (fun done todo => at_ (cmk s (done_of done ++ todo ++ [lastm]) [] c0))).
    - intros d m t E'. apply compact_step. rewrite E. exact E'.
    - rewrite <- E. apply main_at; [apply Image_main|].
      apply (comp_image (done_of body)); [apply btw_done|apply (g_csorted _ G)|apply c0_fits, btw_done].
  Qed.
End Compaction.
