(* The read-only end of a log, for every schedule: a reader is told "end of read-only log" only when
   it has delivered everything the log holds, and no reader stays parked on a finished read-only log. *)
From LB Require Import Base.Prelude Log.HwWait Log.HwWaitRo.
Open Scope Z_scope.

Definition rr_ok (s : ws) (r : rr) : Prop :=
  n_seen r <= w_hw s /\
  n_next r <= n_seen r + 1 /\
  (n_parked r = true -> n_ended r = None /\ n_seen r = w_hw s /\ w_hw s < n_next r /\
                        (w_ro s = true -> w_hw s = w_newest s -> w_pending s = true)) /\
  (forall e, n_ended r = Some e -> n_next r = e + 1 /\ n_parked r = false).

Definition winv (s : ws) : Prop := w_hw s <= w_newest s /\ Forall (rr_ok s) (w_readers s).

(* wupd is the function upd of Log/HwWait.v *)
Lemma nth_error_wupd {A} (l : list A) i j f :
  nth_error (wupd l i f) j = option_map (if Nat.eqb i j then f else fun x => x) (nth_error l j).
Proof. exact (nth_error_upd l i j f). Qed.

Lemma ractive_spec r : ractive r = true <-> n_parked r = false /\ n_ended r = None.
Proof. unfold ractive. destruct (n_parked r), (n_ended r); cbn; intuition congruence. Qed.

Lemma wait_outcome_code s r : wait_outcome wcode s r =
  if negb (n_seen r =? w_hw s) then 0%N else if w_ro s && (w_hw s =? w_newest s) then 1%N else 2%N.
Proof. reflexivity. Qed.

(* besides the HW, rr_ok reads the state only in what it promises a parked reader: that a finished log will notify *)
Lemma rr_ok_frame s s' r : rr_ok s r -> w_hw s' = w_hw s ->
  (n_parked r = true -> w_ro s' = true -> w_hw s' = w_newest s' -> w_pending s' = true) -> rr_ok s' r.
Proof.
  intros (H1 & H2 & H3 & H4) Eh Hp. unfold rr_ok. rewrite Eh. split; [exact H1|split; [exact H2|split; [|exact H4]]].
  intros P. destruct (H3 P) as (A & B & C & _). split; [exact A|split; [exact B|split; [exact C|]]]. rewrite <- Eh. apply Hp. exact P.
Qed.

Lemma rr_ok_running s nx sn en : sn <= w_hw s -> nx <= sn + 1 -> (forall e, en = Some e -> nx = e + 1) ->
  rr_ok s (mkRr nx sn false en).
Proof.
  intros H1 H2 H4. split; [exact H1|split; [exact H2|split; [discriminate|]]]. intros e He. split; [exact (H4 e He)|reflexivity].
Qed.

Lemma rr_ok_below s r : rr_ok s r -> n_next r - 1 <= w_hw s.
Proof. intros (H1 & H2 & _). lia. Qed.

Lemma rr_ok_covered s r : rr_ok s r -> n_next r <= w_hw s -> n_parked r = false.
Proof. intros (_ & _ & H3 & _) Hn. destruct (n_parked r); [|reflexivity]. destruct (H3 eq_refl) as (_ & _ & Hlt & _). clear - Hn Hlt. lia. Qed.

Lemma rr_ok_ended s r e : rr_ok s r -> n_ended r = Some e -> n_next r = e + 1.
Proof. intros (_ & _ & _ & H4) He. apply (H4 e He). Qed.

Lemma rr_ok_parked_finished s r : rr_ok s r -> n_parked r = true -> w_ro s = true -> w_hw s = w_newest s -> w_pending s = true.
Proof. intros (_ & _ & H3 & _) Hp. apply (H3 Hp). Qed.

(* a step that leaves the readers alone: the log may grow, and a finished log must be about to notify *)
Lemma winv_frame s nw ro pe : winv s -> w_newest s <= nw -> (ro = true -> w_hw s = nw -> pe = true) ->
  winv (mkWs (w_hw s) nw ro pe (w_readers s)).
Proof.
  intros [Hle HF] Hn Hp. split; [exact (Z.le_trans _ _ _ Hle Hn)|]. eapply Forall_impl; [|exact HF].
  intros r Hr. apply (rr_ok_frame s _ r Hr); [reflexivity|]. intros _. exact Hp.
Qed.

(* a step of reader i alone changes nothing that rr_ok of the others reads *)
Lemma winv_upd s i f : winv s -> (forall r, rr_ok s r -> rr_ok s (f r)) ->
  winv (mkWs (w_hw s) (w_newest s) (w_ro s) (w_pending s) (wupd (w_readers s) i f)).
Proof. intros [Hle HF] Hf. split; [exact Hle|]. exact (Forall_upd _ _ i f HF Hf). Qed.

Theorem wstep_inv s lb : winv s -> winv (wstep wcode s lb).
Proof.
  intros Hi. destruct lb as [n|b| |h|i|i|i]; cbn [wstep].
  - destruct (Z.ltb_spec 0 n); cbn [andb]; [|exact Hi]. destruct (w_ro s); cbn [negb]; [exact Hi|].
    apply winv_frame; [exact Hi|lia|discriminate].
  - apply winv_frame; [exact Hi|apply Z.le_refl|]. intros Hb _. exact Hb.
  - destruct (w_ro s && (w_newest s <=? w_hw s)) eqn:Ec.
    + destruct Hi as [Hle HF]. split; [exact Hle|]. cbn [w_readers]. rewrite Forall_map. eapply Forall_impl; [|exact HF].
      intros r Hr. destruct (n_parked r) eqn:Ep.
      * destruct Hr as (H1 & H2 & H3 & _). destruct (H3 Ep) as (_ & Es & Hlt & _).
        apply rr_ok_running; cbn [w_hw]; [exact H1|exact H2|]. intros e [= <-]. clear - Ec Hle Es Hlt H2. lia.
      * apply (rr_ok_frame s _ r Hr); [reflexivity|]. congruence.
    + apply winv_frame; [exact Hi|apply Z.le_refl|]. intros Eo Eq. rewrite Eo, Eq, Z.leb_refl in Ec. discriminate Ec.
  - destruct (Z.ltb_spec (w_hw s) h), (Z.leb_spec h (w_newest s)); cbn [andb]; try exact Hi.
    destruct Hi as [Hle HF]. split; [cbn; lia|]. cbn [w_readers]. rewrite Forall_map. eapply Forall_impl; [|exact HF].
    intros r (H1 & H2 & _ & H4). apply rr_ok_running; cbn [w_hw]; [lia|exact H2|]. intros e He. apply (H4 e He).
  - apply winv_upd; [exact Hi|]. intros r Hr. destruct (ractive r); [|exact Hr].
    destruct Hr as (H1 & H2 & _). apply rr_ok_running; [apply Z.le_refl|lia|discriminate].
  - apply winv_upd; [exact Hi|]. intros r Hr. destruct (ractive r && (n_next r <=? n_seen r)) eqn:Ea; [|exact Hr].
    destruct Hr as (H1 & H2 & _). apply rr_ok_running; [exact H1|lia|discriminate].
  - apply winv_upd; [exact Hi|]. intros r Hr. destruct (ractive r && (n_seen r <? n_next r)) eqn:Ea; [|exact Hr]. apply andb_prop in Ea as [_ Ea%Z.ltb_lt].
    rewrite wait_outcome_code. destruct (Z.eqb_spec (n_seen r) (w_hw s)) as [Eq|Ne]; cbn [negb]; [|exact Hr].
    destruct Hr as (H1 & H2 & _). destruct (w_ro s && (w_hw s =? w_newest s)) eqn:Ef.
    + apply rr_ok_running; [exact H1|exact H2|]. intros e [= <-]. clear - H2 Ea Eq Ef. lia.
    + split; [exact H1|split; [exact H2|split; [|discriminate]]]. intros _. clear - Ea Eq Ef.
      split; [reflexivity|split; [exact Eq|split; [cbn [n_next]; lia|]]].
      intros Eo En. rewrite Eo, En, Z.eqb_refl in Ef. discriminate Ef.
Qed.

Theorem wrun_inv s sched : winv s -> winv (wrun wcode s sched).
Proof. exact (fold_left_inv (wstep wcode) winv wstep_inv sched s). Qed.

Lemma wreach_ok s sched r : winv s -> In r (w_readers (wrun wcode s sched)) -> rr_ok (wrun wcode s sched) r.
Proof. intros Hi. apply Forall_forall. apply (wrun_inv s sched Hi). Qed.

Lemma winit_inv n : winv (winit n).
Proof.
  split; [cbn; lia|]. cbn [winit w_readers]. apply Forall_forall. intros r Hr. apply repeat_spec in Hr. subst r.
  apply rr_ok_running; [cbn; lia|lia|discriminate].
Qed.

Theorem end_step_sound s lb j r r' e : winv s -> nth_error (w_readers s) j = Some r -> n_ended r = None ->
  nth_error (w_readers (wstep wcode s lb)) j = Some r' -> n_ended r' = Some e ->
  e = w_newest s /\ w_ro s = true /\ w_hw s = w_newest s /\ n_next r' = w_newest s + 1.
Proof.
  intros Hi Hj He0 Hj' He'.
  (* where an ended reader stands is the invariant after the step; the step itself says when a reader is ended, and with which e *)
  assert (Hn : n_next r' = e + 1).
  { apply (rr_ok_ended (wstep wcode s lb)); [|exact He']. destruct (wstep_inv s lb Hi) as [_ HF].
    rewrite Forall_forall in HF. exact (HF r' (nth_error_In _ _ Hj')). }
  enough (e = w_newest s /\ w_ro s = true /\ w_hw s = w_newest s) as (<- & Hro & Hhw); [auto|]. clear Hn.
  destruct Hi as [Hle _]. destruct lb as [n|b| |h|i|i|i]; cbn [wstep w_readers] in Hj'.
  - destruct ((0 <? n) && negb (w_ro s)); cbn [w_readers] in Hj'; congruence.
  - congruence.
  - destruct (w_ro s && (w_newest s <=? w_hw s)) eqn:Ec; cbn [w_readers] in Hj'; [|congruence].
    rewrite nth_error_map, Hj in Hj'. injection Hj' as <-. destruct (n_parked r); [|congruence].
    injection He' as <-. clear - Ec Hle. lia.
  - destruct ((w_hw s <? h) && (h <=? w_newest s)); cbn [w_readers] in Hj'; [|congruence].
    rewrite nth_error_map, Hj in Hj'. injection Hj' as <-. cbn [n_ended] in He'. congruence.
  - rewrite nth_error_wupd, Hj in Hj'. injection Hj' as <-.
    destruct (Nat.eqb i j), (ractive r); cbn [n_ended] in He'; congruence.
  - rewrite nth_error_wupd, Hj in Hj'. injection Hj' as <-.
    destruct (Nat.eqb i j), (ractive r && (n_next r <=? n_seen r)); cbn [n_ended] in He'; congruence.
  - rewrite nth_error_wupd, Hj in Hj'. injection Hj' as <-.
    destruct (Nat.eqb i j); [|congruence]. cbn beta in He'.
    destruct (ractive r && (n_seen r <? n_next r)); [|congruence]. rewrite wait_outcome_code in He'.
    destruct (negb (n_seen r =? w_hw s)); [congruence|].
    destruct (w_ro s && (w_hw s =? w_newest s)) eqn:Ef; cbn [n_ended] in He'; [|discriminate].
    injection He' as <-. clear - Ef. lia.
Qed.

Theorem notify_leaves_nobody_parked s r : w_ro s = true -> w_hw s = w_newest s ->
  In r (w_readers (wstep wcode s WRoNotify)) -> n_parked r = false.
Proof.
  intros Hro Heq Hin. cbn [wstep] in Hin. rewrite Hro, Heq, Z.leb_refl in Hin. cbn [andb w_readers] in Hin.
  apply in_map_iff in Hin. destruct Hin as (r0 & <- & _). destruct (n_parked r0) eqn:E; [reflexivity|exact E].
Qed.

(* the code on the two schedules on which the variants end a reader early (Properties/C03.v), each
   continued until the reader has delivered everything: the reader is ended only then *)
Lemma code_on_these_schedules :
  map (fun r => (n_next r, n_ended r, n_parked r)) (w_readers (wrun wcode (winit 1) [WAppend 1; WRoFlag true; WRoNotify; WSetHW 0; WWait 0%nat; WSync 0%nat; WDeliver 0%nat; WWait 0%nat]))
  = [(1, Some 0, false)] /\
  map (fun r => (n_next r, n_ended r, n_parked r)) (w_readers (wrun wcode (winit 1)
     [WAppend 2; WSetHW 0; WRoFlag true; WRoNotify; WSync 0%nat; WDeliver 0%nat; WWait 0%nat; WSetHW 1; WSync 0%nat; WDeliver 0%nat; WWait 0%nat]))
  = [(2, Some 1, false)].
Proof. vm_compute. split; reflexivity. Qed.

Theorem ro_progress_enabled s i r : nth_error (w_readers s) i = Some r -> ractive r = true -> n_next r <= w_hw s ->
  exists r', nth_error (w_readers (wstep wcode (wstep wcode s (WSync i)) (WDeliver i))) i = Some r' /\ n_next r' = n_next r + 1.
Proof.
  intros Hn Ha Hle. cbn [wstep w_readers w_hw w_newest w_ro w_pending].
  rewrite !nth_error_wupd, Hn, Nat.eqb_refl. cbn [option_map]. rewrite Ha.
  unfold ractive at 1. cbn [n_parked n_ended n_next n_seen negb andb].
  destruct (Z.leb_spec (n_next r) (w_hw s)); [|lia]. eexists. split; reflexivity.
Qed.
