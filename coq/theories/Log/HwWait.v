(* C03: the high-watermark wake-up protocol between SetHighWatermark and committed readers
   (commitlog.go SetHighWatermark / notifyHWChange / waitForHW, reader.go committedReader),
   as a labelled transition system at lock granularity. A schedule is a list of labels.

   recheck = true : waitForHW compares the reader's view of the HW with l.hw under the log lock
                    before parking (the code)
   recheck = false: it parks unconditionally (a lost wake-up is then possible)

   With the re-check every step keeps hinv, whose clause for a parked
   reader (its view of the HW is current, its next offset above it) is "no lost wake-up"; the HW never
   decreases; a reader that is not parked and has something to read delivers in two of its own steps. *)
From LB Require Import Base.Prelude.
Open Scope Z_scope.

Record rstate := mkR {
  r_next : Z;        (* next offset the reader will deliver *)
  r_seen : Z;        (* the HW value the reader last read (r.hw) *)
  r_parked : bool    (* registered in hwWaiters, blocked on its channel *)
}.

Record hst := mkH { h_hw : Z; h_log_end : Z; h_readers : list rstate }.

Inductive hlabel :=
| HAppend (n : Z)          (* n >= 1 messages appended *)
| HSetHW (h : Z)           (* SetHighWatermark(h): monotone, wakes every waiter *)
| HSync (i : nat)          (* reader i (not parked) reads l.hw into r.hw *)
| HDeliver (i : nat)       (* reader i (not parked) returns its next message, which is <= r.hw *)
| HWait (i : nat).         (* reader i (not parked, nothing to deliver) calls waitForHW(r.hw) *)

Fixpoint upd {A} (l : list A) (i : nat) (f : A -> A) : list A :=
  match l, i with
  | [], _ => []
  | x :: r, O => f x :: r
  | x :: r, S j => x :: upd r j f
  end.

Lemma nth_error_upd {A} (l : list A) i j f :
  nth_error (upd l i f) j = option_map (if Nat.eqb i j then f else fun x => x) (nth_error l j).
Proof.
  revert i j. induction l as [|y t IH]; intros [|i] [|j]; cbn; try reflexivity; [destruct (nth_error t j); reflexivity|apply IH].
Qed.

Lemma Forall_upd {A} (P : A -> Prop) l i f : Forall P l -> (forall x, P x -> P (f x)) -> Forall P (upd l i f).
Proof.
  intros H Hf. revert i. induction H as [|x t Hx Ht IH]; intros i; [destruct i; constructor|].
  destruct i; cbn [upd]; constructor; auto.
Qed.

Definition hstep (recheck : bool) (s : hst) (lb : hlabel) : hst :=
  match lb with
  | HAppend n => if 0 <? n then mkH (h_hw s) (h_log_end s + n) (h_readers s) else s
  | HSetHW h =>
    if (h_hw s <? h) && (h <=? h_log_end s)
    then mkH h (h_log_end s) (map (fun r => mkR (r_next r) (r_seen r) false) (h_readers s))
    else s
  | HSync i => mkH (h_hw s) (h_log_end s)
                   (upd (h_readers s) i (fun r => if r_parked r then r else mkR (r_next r) (h_hw s) false))
  | HDeliver i => mkH (h_hw s) (h_log_end s)
                      (upd (h_readers s) i (fun r => if negb (r_parked r) && (r_next r <=? r_seen r)
                                                      then mkR (r_next r + 1) (r_seen r) false else r))
  | HWait i => mkH (h_hw s) (h_log_end s)
                   (upd (h_readers s) i (fun r =>
                      if negb (r_parked r) && (r_seen r <? r_next r)
                      then (if recheck && negb (r_seen r =? h_hw s)
                            then r                                   (* HW changed: do not park, retry *)
                            else mkR (r_next r) (r_seen r) true)     (* park *)
                      else r))
  end.

Definition hrun (recheck : bool) (s : hst) (sched : list hlabel) : hst := fold_left (hstep recheck) sched s.

Definition reader_ok (s : hst) (r : rstate) : Prop :=
  r_seen r <= h_hw s /\                       (* a reader never believes in a HW that does not exist *)
  r_next r <= r_seen r + 1 /\                 (* it has delivered nothing above the HW it saw *)
  (r_parked r = true -> r_seen r = h_hw s /\ h_hw s < r_next r).
                                              (* parked => its view is current and it really has nothing to read *)

Definition hinv (s : hst) : Prop := h_hw s <= h_log_end s /\ Forall (reader_ok s) (h_readers s).

Lemma reader_ok_running s nx sn : sn <= h_hw s -> nx <= sn + 1 -> reader_ok s (mkR nx sn false).
Proof. intros H1 H2. split; [exact H1|split; [exact H2|discriminate]]. Qed.

Lemma reader_ok_below s r : reader_ok s r -> r_next r - 1 <= h_hw s.
Proof. intros (H1 & H2 & _). lia. Qed.

Lemma reader_ok_covered s r : reader_ok s r -> r_next r <= h_hw s -> r_parked r = false.
Proof. intros (_ & _ & H3) Hn. destruct (r_parked r); [|reflexivity]. destruct (H3 eq_refl). lia. Qed.

(* a step of reader i alone leaves the HW where it is, and with it reader_ok of the others *)
Lemma hinv_upd s i f : hinv s -> (forall r, reader_ok s r -> reader_ok s (f r)) ->
  hinv (mkH (h_hw s) (h_log_end s) (upd (h_readers s) i f)).
Proof. intros [Hle HF] Hf. split; [exact Hle|]. exact (Forall_upd _ _ i f HF Hf). Qed.

Theorem hstep_inv s lb : hinv s -> hinv (hstep true s lb).
Proof.
  intros Hi. destruct lb as [n|h|i|i|i]; cbn [hstep].
  - destruct Hi as [Hle HF]. destruct (Z.ltb_spec 0 n); [|split; assumption]. split; [cbn; lia|exact HF].
  - destruct Hi as [Hle HF]. destruct (Z.ltb_spec (h_hw s) h), (Z.leb_spec h (h_log_end s)); cbn [andb]; try (split; assumption).
    split; [cbn; lia|]. cbn [h_readers]. rewrite Forall_map. eapply Forall_impl; [|exact HF].
    intros r (H1 & H2 & _). apply reader_ok_running; cbn [h_hw]; lia.
  - apply hinv_upd; [exact Hi|]. intros r Hr. destruct (r_parked r); [exact Hr|].
    destruct Hr as (H1 & H2 & _). apply reader_ok_running; lia.
  - apply hinv_upd; [exact Hi|]. intros r Hr. destruct (negb (r_parked r) && (r_next r <=? r_seen r)) eqn:E; [|exact Hr].
    destruct Hr as (H1 & H2 & _). apply reader_ok_running; lia.
  - apply hinv_upd; [exact Hi|]. intros r Hr. destruct (negb (r_parked r) && (r_seen r <? r_next r)) eqn:E; [|exact Hr].
    cbn [andb]. destruct (Z.eqb_spec (r_seen r) (h_hw s)) as [Eq|Ne]; cbn [negb]; [|exact Hr].
    destruct Hr as (H1 & H2 & _). split; [exact H1|split; [exact H2|]]. intros _. cbn [r_seen r_next]. lia.
Qed.

Theorem hrun_inv s sched : hinv s -> hinv (hrun true s sched).
Proof. exact (fold_left_inv (hstep true) hinv hstep_inv sched s). Qed.

Lemma hreach_ok s sched r : hinv s -> In r (h_readers (hrun true s sched)) -> reader_ok (hrun true s sched) r.
Proof. intros Hi. apply Forall_forall. apply (hrun_inv s sched Hi). Qed.

Theorem hw_monotone rc s lb : h_hw s <= h_hw (hstep rc s lb).
Proof.
  destruct lb as [n|h|i|i|i]; cbn [hstep]; try (cbn; lia).
  - destruct (0 <? n); cbn; lia.
  - destruct (Z.ltb_spec (h_hw s) h), (h <=? h_log_end s); cbn; lia.
Qed.

Theorem progress_enabled s i r : nth_error (h_readers s) i = Some r -> r_parked r = false -> r_next r <= h_hw s ->
  exists r', nth_error (h_readers (hstep true (hstep true s (HSync i)) (HDeliver i))) i = Some r' /\ r_next r' = r_next r + 1.
Proof.
  intros Hn Hp Hle. cbn [hstep h_readers h_hw h_log_end]. rewrite !nth_error_upd, Hn, Nat.eqb_refl. cbn [option_map].
  rewrite Hp. cbn [r_parked r_next r_seen negb andb]. destruct (Z.leb_spec (r_next r) (h_hw s)); [|lia].
  eexists. split; reflexivity.
Qed.

(* without the re-check under the lock a wake-up is lost: the reader parks although the HW that
   covers its next message was set between its read of the HW and its registration *)
Definition lost_wakeup_witness : list hlabel := [HAppend 1; HSync 0; HSetHW 0; HWait 0].

Example with_recheck_no_loss :
  let s := hrun true (mkH (-1) (-1) [mkR 0 (-1) false]) lost_wakeup_witness in
  map r_parked (h_readers s) = [false].
Proof. vm_compute. reflexivity. Qed.
