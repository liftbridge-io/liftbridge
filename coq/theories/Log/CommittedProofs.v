(* The committed reader on a quiescent log: exactly the retained records from its start offset
   up to the high watermark. *)
From LB Require Import Base.Prelude Log.Model Log.Proofs Log.Refine Log.CompactProofs.
From Coq Require Import ZifyBool.
Open Scope Z_scope.

Definition in_window (o h : Z) (r : rec) : bool := (o <=? r_off r) && (r_off r <=? h).

Lemma upto_entry_filter lo rs h : sorted_from lo rs -> (exists r, In r rs /\ r_off r = h) ->
  upto_entry rs h = Some (filter (le_off h) rs).
Proof.
  revert lo. induction rs as [|r t IH]; intros lo Hs (x & Hx & Ex); [destruct Hx|].
  destruct Hs as [H1 H2]. cbn [upto_entry filter]. unfold le_off at 1.
  pose proof (sorted_ge _ _ H2) as Hge. rewrite Forall_forall in Hge.
  destruct (Z.leb_spec h (r_off r)) as [Hle|Hgt].
  - (* first entry >= h: it must be h itself, everything after is larger *)
    clear IH. assert (r_off r = h) by (destruct Hx as [->|Hx]; [exact Ex|specialize (Hge x Hx); clear - Hge Ex Hle; lia]).
    destruct (Z.leb_spec (r_off r) h); [|lia].
    rewrite (filter_le_none (r_off r + 1) t h) by (assumption || lia). reflexivity.
  - destruct (Z.leb_spec (r_off r) h); [|lia].
    destruct Hx as [->|Hx]; [lia|]. rewrite (IH (r_off r + 1) H2) by eauto. reflexivity.
Qed.

Lemma upto_hw_filter lo segs h : 0 <= lo -> segs_wf lo segs -> (exists r, In r (flat segs) /\ r_off r = h) ->
  upto_hw segs h = Ok (filter (le_off h) (flat segs)).
Proof.
  revert lo. induction segs as [|s t IH]; intros lo Hlo Hw (x & Hx & Ex); [destruct Hx|].
  destruct Hw as (H1 & H2 & H3). cbn [upto_hw]. assert (Hb : 0 <= s_base s) by exact (Z.le_trans _ _ _ Hlo H1).
  pose proof (s_next_ge s Hb H2) as Hn. assert (Hn0 : 0 <= s_next s) by exact (Z.le_trans _ _ _ Hb Hn).
  rewrite flat_cons in *. rewrite filter_app. apply in_app_or in Hx.
  pose proof (seg_all_lt_next s Hb H2) as Fs. rewrite Forall_forall in Fs.
  destruct (segs_wf_bounds (s_next s) t Hn0 H3) as (_ & Hst & _).
  pose proof (sorted_ge _ _ Hst) as Ft. rewrite Forall_forall in Ft.
  destruct (Z.ltb_spec h (s_next s)) as [Hlt|Hge].
  - (* the HW segment: it holds x, and the later segments lie above h *)
    clear IH. assert (Hin : In x (s_recs s)) by (destruct Hx as [Hx|Hx]; [exact Hx|specialize (Ft x Hx); clear - Ft Ex Hlt; lia]).
    rewrite (upto_entry_filter (s_base s)) by eauto.
    rewrite (filter_le_none (s_next s) (flat t)) by (assumption || lia). rewrite app_nil_r. reflexivity.
  - assert (Hin : In x (flat t)) by (destruct Hx as [Hx|Hx]; [specialize (Fs x Hx); clear - Fs Ex Hge; lia|exact Hx]).
    rewrite (IH (s_next s) Hn0 H3) by eauto. rewrite (filter_le_all (s_recs s)); [reflexivity|].
    apply Forall_forall. intros y Hy. specialize (Fs y Hy). clear - Fs Hge. lia.
Qed.

Lemma skipn_filter_lt lo rs o : sorted_from lo rs ->
  skipn (length (filter (lt_off o) rs)) rs = filter (ge_off o) rs.
Proof.
  intros Hs. pose proof (skipn_app_exact (filter (lt_off o) rs) (filter (ge_off o) rs)) as H.
  rewrite <- (sorted_partition lo rs o Hs) in H. exact H.
Qed.

(* number of records below o, counted the way the reader positions itself *)
Lemma skip_count l o i s : wf l -> find_segment (l_segs l) o = Some (i, s) ->
  (if s_base s <=? o
   then (length (concat (map s_recs (firstn i (l_segs l)))) + (length (s_recs s) - length (from_entry (s_recs s) o)))%nat
   else length (concat (map s_recs (firstn i (l_segs l))))) = length (filter (lt_off o) (flat (l_segs l))).
Proof.
  intros [Hne Hs] E. pose proof (find_segment_spec 0 (l_segs l) o ltac:(lia) Hs) as F. rewrite E in F.
  destruct F as (pre & post & Eseg & <- & Hpre & H0 & Hss & Hlt & _ & Hpost).
  rewrite Eseg, firstn_app_exact. fold (flat pre).
  rewrite flat_mid, !filter_app, !app_length.
  rewrite (filter_lt_all (flat pre)), (filter_lt_none (s_next s) (flat post)) by (assumption || lia).
  cbn [length]. rewrite Nat.add_0_r. destruct (Z.leb_spec (s_base s) o).
  - f_equal. rewrite (from_entry_filter (s_base s)) by exact Hss.
    pose proof (f_equal (@length _) (sorted_partition _ (s_recs s) o Hss)) as HL. rewrite app_length in HL.
    clear - HL. lia.
  - rewrite (filter_lt_none (s_base s) (s_recs s)) by (assumption || lia). symmetry. apply Nat.add_0_r.
Qed.

(* A committed reader started at or below the HW returns exactly the retained records from its
   start offset up to the HW, given that the HW's own record is present.  Compaction retains it
   and the server never truncates below it; retention that outruns the HW removes it, and then
   the reader delivers the first record above the HW (upto_entry stops at the first entry >= hw). *)
Theorem read_committed_spec l o : wf l -> o <= l_hw l -> oldest l <> -1 ->
  (exists r, In r (all_recs l) /\ r_off r = l_hw l) ->
  read_committed l o = (filter (in_window o (l_hw l)) (all_recs l), end_of l).
Proof.
  intros Hw Ho Hold Hhw. pose proof Hw as [Hne Hs]. unfold read_committed.
  destruct (Z.ltb_spec (l_hw l) o); [lia|]. destruct (Z.eqb_spec (oldest l) (-1)); [contradiction|]. cbn [orb].
  rewrite (upto_hw_filter 0) by (try lia; assumption).
  pose proof (find_segment_spec 0 (l_segs l) o ltac:(lia) Hs) as F.
  destruct (find_segment (l_segs l) o) as [[i s]|] eqn:E.
  - f_equal. rewrite (skip_count l o i s Hw E).
    rewrite <- (filter_absorb (lt_off o) (le_off (l_hw l)) (flat (l_segs l))) by (unfold lt_off, le_off; intros; lia).
    rewrite (skipn_filter_lt 0) by (apply filter_sorted, wf_all_sorted; exact Hw).
    rewrite filter_and. apply filter_ext. intros r. apply andb_comm.
  - (* the HW's record is not below o *)
    exfalso. destruct Hhw as (x & Hx & Ex). destruct F as [F _]. rewrite Forall_forall in F.
    specialize (F x Hx). clear - F Ex Ho. lia.
Qed.

Theorem read_committed_refines l o : wf l -> o <= l_hw l -> oldest l <> -1 ->
  (exists r, In r (all_recs l) /\ r_off r = l_hw l) ->
  fst (read_committed l o) = filter (in_window o (l_hw l)) (all_recs l).
Proof. intros Hw Ho Hold Hhw. rewrite read_committed_spec by assumption. reflexivity. Qed.

Theorem read_committed_beyond_hw l o : (l_hw l < o \/ oldest l = -1) -> fst (read_committed l o) = [].
Proof.
  intros H. unfold read_committed.
  destruct (Z.ltb_spec (l_hw l) o), (Z.eqb_spec (oldest l) (-1)); cbn [orb]; try reflexivity. lia.
Qed.

Corollary read_committed_never_above_hw l o r : wf l -> o <= l_hw l -> oldest l <> -1 ->
  (exists x, In x (all_recs l) /\ r_off x = l_hw l) -> In r (fst (read_committed l o)) -> r_off r <= l_hw l.
Proof.
  intros Hw Ho Hold Hhw Hin. rewrite (read_committed_refines l o Hw Ho Hold Hhw) in Hin.
  apply filter_In in Hin. destruct Hin as [_ H]. unfold in_window in H. lia.
Qed.
