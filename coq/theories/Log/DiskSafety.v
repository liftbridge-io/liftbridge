(* Crash safety of the partition log (C05), over operations and histories. A disk state is read as a log of
   the in-memory model (log_of); op_ok is what an operation must be given, survives what a crash inside it
   must leave, model_op what it does when it completes. op_run says all of it for one operation from a good
   state; crash_safe, exec_refines and history_safe (over hist_ok) are read off it. *)
From LB Require Import Base.Prelude Log.Model Log.Retention Log.Compact Log.Proofs Log.Refine Log.Disk Log.DiskBase Log.DiskProofs Log.DiskBlocks Log.DiskTrunc Log.DiskClean Log.DiskCleanOp.
From Coq Require Import ZifyBool.
Open Scope Z_scope.

Lemma image_weaken s o (K K' : rec -> Prop) d : (forall x, K' x -> K x) -> Image s o K d -> Image s o K' d.
Proof. intros H (A & B & C). split; [exact A|split; [exact B|intros x Hx HK; apply C; [exact Hx|apply H; exact HK]]]. Qed.

(* what commitlog.New makes of anything that has the records of a crash image of the operation *)
Lemma image_recovers s o K d d' : Image s o K d -> Mid (s_hw s) d' -> content d' = content d ->
  let r := recover fixed d' in
  Good (mkSt r (d_hw r)) /\ d_hw r <= s_hw s /\
  (forall x, In x (content r) -> In x (content (s_disk s)) \/ In x (incoming s o)) /\
  (forall x, In x (content (s_disk s)) -> K x -> In x (content r)).
Proof.
  intros (_ & A & B) M' Ec. destruct (mid_recover _ _ M') as (GR & Hcont & Hhw & _ & _). cbn zeta.
  split; [exact GR|]. split; [exact Hhw|]. rewrite Hcont, Ec. split; assumption.
Qed.

Definition log_of (s : st) : log := mkLog (segs_of (s_disk s)) (s_hw s) (d_ep (s_disk s)) false.

Lemma active_next s : Good s -> s_next (active (log_of s)) = next_of s.
Proof.
  intros G. destruct (good_active s G) as (pre & a & E & _ & _ & -> & _).
  unfold active, log_of, segs_of. cbn [l_segs]. rewrite E, map_app. cbn [map]. rewrite last_last. reflexivity.
Qed.

(* An operation that leaves the HW alone has run to the end on disk d: the state is good and, seen as
   a log of the in-memory model, it is l. *)
Definition done_as (s : st) (l : log) (d : disk) : Prop := Good (mkSt d (s_hw s)) /\ log_of (mkSt d (s_hw s)) = l.

Lemma done_meq s l d d' : meq d' d -> done_as s l d -> done_as s l d'.
Proof.
  intros Hm [Gd <-]. split; [apply (good_meq _ _ Gd), meq_sym, Hm|].
  destruct Hm as (A & _ & _ & D). unfold log_of, segs_of. cbn [s_disk s_hw]. rewrite A, D. reflexivity.
Qed.

Lemma done_same s : Good s -> done_as s (log_of s) (s_disk s).
Proof. intros G. destruct s. split; [exact G|reflexivity]. Qed.

Lemma done_shrunk s segs c : Mid (s_hw s) (cmk s segs [] c) -> segs <> [] -> (forall m, In m segs -> m_idx m = Some (m_recs m)) ->
  cbound c (m_next (last segs dummy_m)) -> done_as s (mkLog (map m_seg segs) (s_hw s) c false) (cmk s segs [] c).
Proof. intros M Hne Hidx Hcb. split; [apply mid_good; [exact M|exact Hne|exact Hidx|reflexivity|exact Hcb]|reflexivity]. Qed.

Lemma trunc_op_seq s o : Good s ->
  seq (Image s (DTrunc o) (K o)) (at_ (s_disk s)) (trunc_effs fixed (s_disk s) o) (done_as s (truncate (log_of s) o)).
Proof.
  intros G. unfold truncate. cbn [log_of l_segs]. destruct (find_segment (segs_of (s_disk s)) o) as [[i st]|] eqn:Hfind.
  2:{ unfold trunc_effs. rewrite Hfind. apply (seq_conseq (Image s (DTrunc o) (K o)) (at_ (s_disk s)) _ (at_ (s_disk s)) _); [auto|intros d Hd; exact (done_meq _ _ _ _ Hd (done_same s G))|].
      apply seq_nil, main_at; [apply Image_main|apply good_image; exact G]. }
  destruct (find_segment_some _ _ _ _ Hfind) as (preS & postS & E & Hlen & Hlt & Hpre).
  unfold segs_of in E. destruct (map_split3 _ _ _ _ _ E) as (pre & t & later & Hshape & E1 & E2 & E3). subst preS st postS.
  rewrite map_length in Hlen.
  destruct (trunc_seq s G o pre t later Hshape Hlt Hpre i (eq_sym Hlen) Hfind) as (Hseq & Himg & Hne & Hidx & Hcb).
  eapply seq_conseq; [intros d Hd; exact Hd| |exact Hseq].
  intros d Hd. apply (done_meq _ _ _ _ Hd).
  replace (mkLog _ _ _ _) with (mkLog (map m_seg (final_segs o pre t i)) (s_hw s) (cfin s o t i) false); [exact (done_shrunk s _ _ (proj1 Himg) Hne Hidx Hcb)|].
  cbn [l_hw l_cache l_ro]. rewrite <- (final_is_model s o pre t later Hshape Hlt Hpre i (eq_sym Hlen)).
  unfold cfin. rewrite <- (final_next s o pre t later Hshape i (eq_sym Hlen) Hne).
  change dummy_seg with (m_seg dummy_m). rewrite last_map by exact Hne. reflexivity.
Qed.

Lemma segs_ne s : Good s -> segs_of (s_disk s) <> [].
Proof. intros G. unfold segs_of. pose proof (g_ne _ G). destruct (d_segs (s_disk s)); [contradiction|discriminate]. Qed.

Section Safety.
  Variable key_of : bytes -> option bytes.
  Variable p : params.
  Hypothesis maxb_pos : 0 < p_maxb p.

  Definition survives (s : st) (o : dop) (x : rec) : Prop :=
    match o with
    | DTrunc t => r_off x < t
    | DClean ttl => Kc key_of p s ttl x       (* a record of the segments the clean leaves *)
    | _ => True
    end.

  Definition op_ok (s : st) (o : dop) : Prop :=
    match o with
    | DCreate => False                    (* only commitlog.New on an empty directory: `init` *)
    | DAppend ms => ms <> [] /\ ep_mono (cache_latest_epoch (d_ep (s_disk s))) (number (next_of s) ms)
    | DASet rs => rs <> [] /\ sorted_from (next_of s) rs /\ ep_mono (cache_latest_epoch (d_ep (s_disk s))) rs
    | _ => True
    end.

  (* completed operations are the operations of the in-memory model (C01, C08, C09) *)
  Definition model_op (l : log) (o : dop) : log :=
    match o with
    | DCreate => l
    | DAppend ms => append_log (p_maxb p) false l ms
    | DASet rs => match append_set (p_maxb p) l rs with Ok (l', _) => l' | _ => l end
    | DTrunc t => truncate l t
    | DClean ttl => if p_compact p then clean_compact key_of false (p_lim p) ttl l else clean (p_lim p) ttl l
    | DSetHw h => set_hw l h
    | DCheckpoint => l
    | DEpoch e => new_leader_epoch l e
    | DReopen => reopen l
    end.

  Lemma check_split_eq l : l_segs l <> [] ->
    check_split (p_maxb p) l = mkLog (split_segs p (l_segs l)) (l_hw l) (l_cache l) (l_ro l).
  Proof.
    intros Hne. destruct (exists_last Hne) as (pre & a & E). unfold check_split, split_segs, active. rewrite E, rev_app_distr, last_last.
    cbn [rev app]. destruct (p_maxb p <=? s_pos a); [reflexivity|]. rewrite <- E. destruct l; reflexivity.
  Qed.

  Lemma appended_done s rs d : Good s -> appended p s rs d -> done_as s (write (check_split (p_maxb p) (log_of s)) rs) d.
  Proof.
    intros G (Gd & _ & Hs & Hc & _). split; [exact Gd|].
    rewrite (check_split_eq (log_of s) (segs_ne s G)). unfold log_of, write. cbn [s_disk s_hw l_segs l_hw l_cache l_ro].
    rewrite Hs, Hc. reflexivity.
  Qed.

  Lemma check_split_next s : Good s -> s_next (active (check_split (p_maxb p) (log_of s))) = next_of s.
  Proof.
    intros G. unfold check_split. destruct (p_maxb p <=? s_pos (active (log_of s))); [|exact (active_next s G)].
    unfold active at 1. cbn [l_segs]. rewrite last_last. exact (active_next s G).
  Qed.

  Lemma clean_done s ttl segs c : map m_seg segs = clean_target key_of p s ttl -> c = clean_cache key_of p s ttl ->
    mkLog (map m_seg segs) (s_hw s) c false = model_op (log_of s) (DClean ttl).
  Proof.
    intros -> ->. unfold clean_target, clean_cache, model_op, clean_compact, clean, log_of. cbn [l_segs l_hw l_cache l_ro].
    change (retain (p_lim p) ttl (segs_of (s_disk s))) with (s3 p s ttl).
    destruct (p_compact p); [|reflexivity]. destruct (s3 p s ttl) as [|a [|b u]]; reflexivity.
  Qed.

  (* Close + New on a good directory: every index is right already, so only the epoch cache is trimmed *)
  Lemma reopen_eq s : Good s ->
    log_of (mkSt (recover fixed (with_hw (s_disk s) (s_hw s))) (d_hw (recover fixed (with_hw (s_disk s) (s_hw s))))) = reopen (log_of s).
  Proof.
    intros G. unfold reopen. rewrite (active_next s G). unfold oldest, log_of, recover, segs_of, next_of, d_active. cbn [s_disk s_hw l_segs l_hw l_cache with_hw d_segs d_hw d_ep].
    assert (Hfix : map (fix_idx fixed) (d_segs (s_disk s)) = d_segs (s_disk s)).
    { rewrite <- (map_id (d_segs (s_disk s))) at 2. apply map_ext_in. intros m Hm. rewrite fix_idx_fixable by exact (idx_fixable _ (g_idx _ G m Hm)).
      rewrite <- (g_idx _ G m Hm). destruct m; reflexivity. }
    rewrite Hfix. pose proof (g_idx _ G) as Hidx. pose proof (g_ne _ G) as Hne. destruct (d_segs (s_disk s)) as [|m0 mt]; [contradiction|].
    cbn [map]. unfold s_first, m_fi. rewrite (Hidx m0 (or_introl eq_refl)). reflexivity.
  Qed.

  Lemma good_hw_up s h : Good s -> s_hw s <= h -> Good (mkSt (s_disk s) h).
  Proof. intros G Hh. split; cbn [s_disk s_hw]; try apply G. pose proof (g_hw _ G). lia. Qed.

  (* One operation, from a good state: its script exists; every prefix of it leaves a crash image;
     run to the end it leaves a good state, the HW not lowered, and, seen as a log of the in-memory
     model, what the model's operation gives. *)
  Theorem op_run s o : Good s -> op_ok s o -> exists es, script key_of fixed p s o = Some es /\
    (forall n, Image s o (survives s o) (run_effs (s_disk s) (firstn n es))) /\
    (forall s', exec key_of fixed p s o = Some s' -> Good s' /\ s_hw s <= s_hw s' /\ log_of s' = model_op (log_of s) o).
  Proof.
    intros G Hok.
    assert (Hdone : forall l d, done_as s l d -> Good (mkSt d (s_hw s)) /\ s_hw s <= s_hw s /\ log_of (mkSt d (s_hw s)) = l)
      by (intros l d [Gd El]; split; [exact Gd|split; [apply Z.le_refl|exact El]]).
    destruct o as [|ms|rs|t|ttl|h| |e|]; cbn [op_ok] in Hok; try contradiction.
    (* DTrunc .. DReopen: the script is [Some _] outright; only a write's can fail, in split_effs *)
    3-8: unfold exec, script; eexists; (split; [reflexivity|]).
    - (* DAppend *) destruct Hok as [Hne Hmono].
      destruct (write_op_seq p maxb_pos s (DAppend ms) (number (next_of s) ms) (survives s (DAppend ms)) G eq_refl (number_ne _ _ Hne) (number_sorted _ _) Hmono)
        as (sp & Esp & Hnx & Hseq). cbn zeta in Hnx, Hseq.
      unfold exec, script. rewrite Esp, Hnx. eexists. split; [reflexivity|].
      destruct (Hseq _ eq_refl) as [Hall Hfin]. split; [exact Hall|].
      intros s' [= <-]. apply Hdone. apply (appended_done s _ _ G) in Hfin.
      cbn [model_op]. unfold append_log, append. cbn [log_of l_ro andb]. destruct ms as [|m0 mt]; [contradiction|].
      fold (log_of s). rewrite (check_split_next s G). exact Hfin.
    - (* DASet *) destruct Hok as (Hne & Hsort & Hmono).
      destruct (write_op_seq p maxb_pos s (DASet rs) rs (survives s (DASet rs)) G eq_refl Hne Hsort Hmono) as (sp & Esp & _ & Hseq). cbn zeta in Hseq.
      unfold exec, script. rewrite Esp. eexists. split; [reflexivity|].
      destruct (Hseq _ eq_refl) as [Hall Hfin]. split; [exact Hall|].
      intros s' [= <-]. apply Hdone. apply (appended_done s _ _ G) in Hfin.
      cbn [model_op]. unfold append_set. destruct rs as [|r0 rt]; [contradiction|exact Hfin].
    - (* DTrunc *) destruct (trunc_op_seq s t G _ (meq_refl _)) as [Hall Hfin]. split; [exact Hall|].
      intros s' [= <-]. apply Hdone. exact Hfin.
    - (* DClean *) destruct (clean_op_seq key_of p s G ttl _ (meq_refl _)) as [Hall (segs & c & Hm & Hne & Hidx & Hcb & Himg & Es & Ec)]. split; [exact Hall|].
      intros s' [= <-]. apply Hdone. apply (done_meq _ _ _ _ Hm). rewrite <- (clean_done s ttl segs c Es Ec).
      exact (done_shrunk s segs c (proj1 Himg) Hne Hidx Hcb).
    - (* DSetHw *) split; [intros [|n]; apply good_image; exact G|].
      intros s' [= <-]. cbn [run_effs fold_left model_op]. unfold set_hw, log_of. cbn [l_hw s_hw s_disk].
      destruct (Z.ltb_spec (s_hw s) h) as [Hlt|_].
      + apply Z.lt_le_incl in Hlt. split; [exact (good_hw_up s h G Hlt)|split; [exact Hlt|reflexivity]].
      + split; [destruct s; exact G|split; [apply Z.le_refl|reflexivity]].
    - (* DCheckpoint *) destruct (checkpoint_seq s DCheckpoint (survives s DCheckpoint) G _ eq_refl) as [Hall _]. split; [exact Hall|].
      intros s' [= <-]. exact (Hdone _ _ (conj (good_with_hw s (s_hw s) G (Z.le_refl _)) eq_refl)).
    - (* DEpoch *) destruct (epoch_seq s (DEpoch e) (survives s (DEpoch e)) e G _ eq_refl) as [Hall [Hfin Gd]]. split; [exact Hall|].
      intros s' [= <-]. apply Hdone. split; [exact Gd|].
      unfold next_of in Hfin. rewrite Hfin. cbn [model_op]. unfold new_leader_epoch, newest. rewrite (active_next s G). unfold log_of, next_of. cbn [s_disk s_hw l_segs l_hw l_cache l_ro with_ep d_ep]. f_equal. f_equal. symmetry. apply Z.sub_add.
    - (* DReopen *) destruct (checkpoint_seq s DReopen (survives s DReopen) G _ eq_refl) as [Hall _]. split; [exact Hall|].
      intros s' [= <-]. pose proof (good_mid _ (good_with_hw s (s_hw s) G (Z.le_refl _))) as M. cbn [s_disk s_hw] in M.
      destruct (mid_recover _ _ M) as (GR & _). split; [exact GR|split; [apply Z.le_refl|exact (reopen_eq s G)]].
  Qed.

  Theorem op_prefixes s o : Good s -> op_ok s o -> exists es, script key_of fixed p s o = Some es /\
    (forall n, Image s o (survives s o) (run_effs (s_disk s) (firstn n es))) /\
    (forall s', exec key_of fixed p s o = Some s' -> Good s' /\ s_hw s <= s_hw s').
  Proof.
    intros G Hok. destruct (op_run s o G Hok) as (es & Es & Hall & Hex). exists es. split; [exact Es|split; [exact Hall|]].
    intros s' E. destruct (Hex s' E) as (G' & Hh & _). split; assumption.
  Qed.

  Theorem exec_refines s o s' : Good s -> op_ok s o -> exec key_of fixed p s o = Some s' -> log_of s' = model_op (log_of s) o.
  Proof. intros G Hok E. destruct (op_run s o G Hok) as (_ & _ & _ & Hex). apply (Hex s' E). Qed.

  Theorem exec_good s o : Good s -> op_ok s o -> exists s', exec key_of fixed p s o = Some s' /\ Good s'.
  Proof.
    intros G Hok. destruct (op_run s o G Hok) as (es & Es & _ & Hex). unfold exec in *. rewrite Es in *. eexists. split; [reflexivity|]. apply (Hex _ eq_refl).
  Qed.

  Theorem crash_recovers s o n : Good s -> op_ok s o -> exists s', crash key_of fixed p s o n = Some s'.
  Proof. intros G Hok. destruct (op_run s o G Hok) as (es & Es & _). unfold crash. rewrite Es. eexists. reflexivity. Qed.

  Theorem crash_safe s o n s' : Good s -> op_ok s o -> crash key_of fixed p s o n = Some s' ->
    Good s' /\ s_hw s' <= s_hw s /\
    (forall x, In x (content (s_disk s')) -> In x (content (s_disk s)) \/ In x (incoming s o)) /\
    (forall x, In x (content (s_disk s)) -> survives s o x -> In x (content (s_disk s'))).
  Proof.
    intros G Hok Hc. destruct (op_run s o G Hok) as (es & Es & Hall & _). unfold crash in Hc. rewrite Es in Hc. injection Hc as <-.
    exact (image_recovers s o _ _ _ (Hall n) (proj1 (Hall n)) eq_refl).
  Qed.

  Definition op_of (h : hstep) : dop := match h with HDo o => o | HCrash o _ => o end.

  Fixpoint hist_ok (s : st) (hs : list hstep) : Prop :=
    match hs with
    | [] => True
    | h :: r => op_ok s (op_of h) /\ forall s', hstep_run key_of fixed p (Some s) h = Some s' -> hist_ok s' r
    end.

  Lemma hist_ok_cons s h r s' : op_ok s (op_of h) -> hstep_run key_of fixed p (Some s) h = Some s' -> hist_ok s' r -> hist_ok s (h :: r).
  Proof. intros Hop E Hr. split; [exact Hop|]. intros s'' E'. rewrite E in E'. injection E' as <-. exact Hr. Qed.

  Lemma init_good : exists s0, init key_of fixed p = Some s0 /\ Good s0 /\ content (s_disk s0) = [].
  Proof.
    eexists. split; [reflexivity|]. split; [|reflexivity]. split; cbn.
    - discriminate.
    - apply WF_single0.
    - intros m [<-|[]]. reflexivity.
    - reflexivity.
    - exact I.
    - intros e s0 [].
    - intros x [].
    - lia.
  Qed.

  Lemma step_safe s h : Good s -> op_ok s (op_of h) -> exists s1, hstep_run key_of fixed p (Some s) h = Some s1 /\ Good s1.
  Proof.
    intros G Hop. destruct h as [o|o n]; cbn [hstep_run op_of] in *.
    - apply exec_good; assumption.
    - destruct (crash_recovers s o n G Hop) as (s1 & E). exists s1. split; [exact E|]. apply (crash_safe s o n s1 G Hop E).
  Qed.

  Theorem history_safe hs : forall s, Good s -> hist_ok s hs ->
    exists s', fold_left (hstep_run key_of fixed p) hs (Some s) = Some s' /\ Good s'.
  Proof.
    induction hs as [|h r IH]; intros s G Hok; [exists s; split; [reflexivity|exact G]|].
    destruct Hok as [Hop Hrest]. cbn [fold_left].
    destruct (step_safe s h G Hop) as (s1 & E1 & G1). rewrite E1. apply IH; [exact G1|apply Hrest; exact E1].
  Qed.
End Safety.

Lemma good_wf s : Good s -> wf (log_of s) /\ all_recs (log_of s) = content (s_disk s).
Proof.
  intros G. split; [split|].
  - exact (segs_ne s G).
  - cbn [log_of l_segs]. apply WF_segs_wf. apply (g_wf _ G).
  - symmetry. apply content_flat.
Qed.

(* hence C01's reader theorem applies to whatever a crash leaves: an uncommitted reader from any
   offset returns exactly the recovered records at or above it *)
Lemma recovered_read s o : Good s ->
  fst (read_uncommitted (log_of s) o) = filter (ge_off o) (content (s_disk s)).
Proof.
  intros G. destruct (good_wf s G) as [Hw Hc]. destruct (read_uncommitted_refines (log_of s) o Hw) as [H _].
  rewrite H, Hc. reflexivity.
Qed.
