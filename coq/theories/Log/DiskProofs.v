(* Crash safety of the partition log (property C05) on the crash model of Log/Disk.v:
   whatever prefix of an operation's file-system effects reached the disk, commitlog.New recovers
   a good log from it which holds what it must, nothing it must not, and an epoch history that
   matches. Here: prefixes of effect lists (`seq`), append and
   AppendMessageSet, the HW checkpoint and the assignment of a leader epoch. *)
From LB Require Import Base.Prelude Log.Model Log.Retention Log.Compact Log.Proofs Log.Refine Log.Disk Log.DiskBase.
From Coq Require Import ZifyBool.
Open Scope Z_scope.

Lemma run_effs_app d a b : run_effs d (a ++ b) = run_effs (run_effs d a) b.
Proof. unfold run_effs. apply fold_left_app. Qed.

Lemma firstn_app_cases {A} n (a b : list A) :
  firstn n (a ++ b) = firstn n a \/ exists k, firstn n (a ++ b) = a ++ firstn k b.
Proof.
  rewrite firstn_app. destruct (Nat.le_gt_cases n (length a)) as [H|H].
  - left. replace (n - length a)%nat with O by lia. cbn [firstn]. apply app_nil_r.
  - right. exists (n - length a)%nat. rewrite firstn_all2 by lia. reflexivity.
Qed.

Definition seq (R P : disk -> Prop) (es : list eff) (Q : disk -> Prop) : Prop :=
  forall d, P d -> (forall n, R (run_effs d (firstn n es))) /\ Q (run_effs d es).

Lemma seq_app (R P : disk -> Prop) a (Q : disk -> Prop) b (T : disk -> Prop) : seq R P a Q -> seq R Q b T -> seq R P (a ++ b) T.
Proof.
  intros Ha Hb d Hd. destruct (Ha d Hd) as [Ha1 Ha2]. destruct (Hb _ Ha2) as [Hb1 Hb2]. split.
  - intros n. destruct (firstn_app_cases n a b) as [->|[k ->]]; [apply Ha1|]. rewrite run_effs_app. apply Hb1.
  - rewrite run_effs_app. exact Hb2.
Qed.

Lemma seq_nil (R P : disk -> Prop) : (forall d, P d -> R d) -> seq R P [] P.
Proof. intros H d Hd. split; [intros n; destruct n; cbn; apply H; exact Hd|exact Hd]. Qed.

Lemma seq_one (R P Q : disk -> Prop) e : (forall d, P d -> R d) -> (forall d, P d -> Q (apply_eff d e)) -> (forall d, Q d -> R d) -> seq R P [e] Q.
Proof.
  intros HP He HQ d Hd. split; [|apply He; exact Hd].
  intros [|n]; [cbn; apply HP; exact Hd|]. cbn [firstn]. replace (firstn n []) with (@nil eff) by (destruct n; reflexivity).
  cbn. apply HQ, He. exact Hd.
Qed.

Lemma seq_conseq (R P P' Q Q' : disk -> Prop) es : (forall d, P' d -> P d) -> (forall d, Q d -> Q' d) -> seq R P es Q -> seq R P' es Q'.
Proof. intros HP HQ H d Hd. destruct (H d (HP d Hd)) as [H1 H2]. split; [exact H1|apply HQ; exact H2]. Qed.

Lemma seq_each (R I : disk -> Prop) es : (forall d, I d -> R d) -> (forall e, In e es -> forall d, I d -> I (apply_eff d e)) -> seq R I es I.
Proof.
  intros HR. induction es as [|e t IH]; intros He; [apply seq_nil; exact HR|].
  change (e :: t) with ([e] ++ t). apply (seq_app R I [e] I t I).
  - apply seq_one; [exact HR|apply He; left; reflexivity|exact HR].
  - apply IH. intros e' Hin. apply He. right. exact Hin.
Qed.

(* a crash point can be dropped from the front of a list: the prefixes reach the same disks *)
Lemma seq_cons_point (R P Q : disk -> Prop) p es : seq R P es Q -> seq R P (FPoint p :: es) Q.
Proof.
  intros H d Hd. destruct (H d Hd) as [H1 H2]. split; [|exact H2].
  intros [|n]; [exact (H1 O)|exact (H1 n)].
Qed.

Lemma seq_cons (R P M Q : disk -> Prop) e es : seq R P [e] M -> seq R M es Q -> seq R P (e :: es) Q.
Proof. exact (seq_app R P [e] M es Q). Qed.

Lemma seq_step (R : disk -> Prop) d e es (Q : disk -> Prop) : R d -> seq R (eq (apply_eff d e)) es Q -> seq R (eq d) (e :: es) Q.
Proof.
  intros Hd H x <-. destruct (H _ eq_refl) as [H1 H2]. split; [|exact H2].
  intros [|n]; [exact Hd|exact (H1 n)].
Qed.

Lemma seq_from (R : disk -> Prop) d es (Q : disk -> Prop) : seq R (eq d) es Q -> seq R (fun x => x = d) es Q.
Proof. intros H x ->. exact (H d eq_refl). Qed.

Lemma seq_end (R : disk -> Prop) d (Q : disk -> Prop) : R d -> Q d -> seq R (eq d) [] Q.
Proof. intros Hd HQ x <-. split; [intros [|n]; exact Hd|exact HQ]. Qed.

(* a loop over a list of items, one block of effects each; J done todo is the loop invariant *)
Lemma seq_foreach {A} (R : disk -> Prop) (f : A -> list eff) (J : list A -> list A -> disk -> Prop) todo :
  forall done, (forall d x t, done ++ todo = d ++ x :: t -> seq R (J d (x :: t)) (f x) (J (d ++ [x]) t)) ->
  (forall d, J (done ++ todo) [] d -> R d) ->
  seq R (J done todo) (concat (map f todo)) (J (done ++ todo) []).
Proof.
  induction todo as [|x t IH]; intros done Hstep Hend.
  - rewrite app_nil_r in *. apply seq_nil. exact Hend.
  - cbn [map concat]. apply (seq_app R _ _ (J (done ++ [x]) t)); [apply Hstep; reflexivity|].
    replace (done ++ x :: t) with ((done ++ [x]) ++ t) in * by (rewrite <- app_assoc; reflexivity).
    apply IH; [|exact Hend]. intros d y u E. apply Hstep. exact E.
Qed.

Lemma seg_get_none_notin ms b : seg_get ms b = None <-> forall m, In m ms -> m_base m <> b.
Proof.
  induction ms as [|x t IH]; cbn [seg_get]; [split; [intros _ m []|reflexivity]|].
  destruct (Z.eqb_spec (m_base x) b) as [E|N].
  - split; [discriminate|]. intros H. exfalso. apply (H x (or_introl eq_refl)). exact E.
  - rewrite IH. split; [intros H m [<-|Hin]; [exact N|apply H; exact Hin]|intros H m Hin; apply H; right; exact Hin].
Qed.

Lemma seg_mid front x rest : (forall m, In m front -> m_base m <> m_base x) ->
  seg_get (front ++ x :: rest) (m_base x) = Some x /\ seg_del (front ++ x :: rest) (m_base x) = front ++ rest /\
  forall f, seg_upd (front ++ x :: rest) (m_base x) f = front ++ f x :: rest.
Proof.
  induction front as [|y t IH]; intros H; cbn [app seg_get seg_del seg_upd]; [rewrite Z.eqb_refl; repeat split|].
  destruct (Z.eqb_spec (m_base y) (m_base x)) as [E|N]; [exfalso; apply (H y (or_introl eq_refl)); exact E|].
  destruct (IH (fun m Hin => H m (or_intror Hin))) as (A & B & C). split; [exact A|split; [rewrite B; reflexivity|intros f; rewrite C; reflexivity]].
Qed.

Lemma seg_get_mid front x rest : (forall m, In m front -> m_base m <> m_base x) -> seg_get (front ++ x :: rest) (m_base x) = Some x.
Proof. intros H. apply (seg_mid front x rest H). Qed.

Lemma seg_del_mid front x rest : (forall m, In m front -> m_base m <> m_base x) -> seg_del (front ++ x :: rest) (m_base x) = front ++ rest.
Proof. intros H. apply (seg_mid front x rest H). Qed.

Lemma seg_upd_mid front x rest f : (forall m, In m front -> m_base m <> m_base x) -> seg_upd (front ++ x :: rest) (m_base x) f = front ++ f x :: rest.
Proof. intros H. apply (seg_mid front x rest H). Qed.

Lemma seg_upd_in ms b f m : In m (seg_upd ms b f) -> In m ms \/ exists m0, In m0 ms /\ m = f m0.
Proof.
  induction ms as [|x t IH]; cbn [seg_upd]; [intros []|]. destruct (m_base x =? b).
  - intros [<-|H]; [right; exists x; split; [left; reflexivity|reflexivity]|left; right; exact H].
  - intros [<-|H]; [left; left; reflexivity|]. destruct (IH H) as [H'|(m0 & H1 & H2)]; [left; right; exact H'|right; exists m0; split; [right; exact H1|exact H2]].
Qed.

Lemma seg_upd_segs ms b f : (forall m, m_seg (f m) = m_seg m) -> map m_seg (seg_upd ms b f) = map m_seg ms.
Proof.
  intros Hf. induction ms as [|x t IH]; cbn [seg_upd map]; [reflexivity|]. destruct (m_base x =? b); cbn [map]; [rewrite Hf; reflexivity|rewrite IH; reflexivity].
Qed.

Lemma seg_ins_end ms n : (forall m, In m ms -> m_base m < m_base n) -> seg_ins ms n = ms ++ [n].
Proof.
  induction ms as [|x t IH]; intros H; cbn [seg_ins app]; [reflexivity|].
  specialize (H x (or_introl eq_refl)) as Hx. destruct (Z.ltb_spec (m_base n) (m_base x)); [lia|].
  f_equal. apply IH. intros m Hin. apply H. right. exact Hin.
Qed.

Lemma split_last {A} (l : list A) d : l <> [] -> l = removelast l ++ [last l d].
Proof. intros H. apply app_removelast_last. exact H. Qed.

Lemma WF_extend_last pre a rs : WF (pre ++ [a]) -> sorted_from (s_next a) rs ->
  WF (pre ++ [mkSeg (s_base a) (s_recs a ++ rs)]).
Proof.
  intros Hw Hs. apply (WF_last_recs pre a _ Hw).
  apply (proj2 (sorted_app (s_base a) (s_recs a) rs (WF_base_nonneg _ a Hw (in_elt _ _ _)))).
  split; [exact (wf_sorted _ Hw a (in_elt _ _ _))|exact Hs].
Qed.

Definition next_of (s : st) : Z := m_next (d_active (s_disk s)).

Definition incoming (s : st) (o : dop) : list rec :=
  match o with
  | DAppend ms => number (next_of s) ms
  | DASet rs => rs
  | _ => []
  end.

Lemma sorted_from_firstn lo rs n : sorted_from lo rs -> sorted_from lo (firstn n rs).
Proof.
  revert lo n. induction rs as [|r t IH]; intros lo n H; [destruct n; exact I|]. destruct n as [|n]; [exact I|].
  destruct H as [H1 H2]. cbn [firstn sorted_from]. split; [exact H1|apply IH; exact H2].
Qed.

Lemma ep_mono_firstn lo rs n : ep_mono lo rs -> ep_mono lo (firstn n rs).
Proof.
  revert lo n. induction rs as [|r t IH]; intros lo n H; [destruct n; exact I|]. destruct n as [|n]; [exact I|].
  destruct H as [H1 H2]. cbn [firstn ep_mono]. split; [exact H1|apply IH; exact H2].
Qed.

Definition with_ep (d : disk) (c : epoch_cache) : disk := mkDisk (d_segs d) (d_orph d) (d_scr d) (d_hw d) c.

Lemma with_ep_same d : with_ep d (d_ep d) = d.
Proof. destruct d; reflexivity. Qed.

Lemma with_ep_twice d c c' : with_ep (with_ep d c) c' = with_ep d c'.
Proof. reflexivity. Qed.

Lemma Mid_with_ep H d c : Mid H d -> csorted c -> cmatch c (content d) -> Mid H (with_ep d c).
Proof. intros [F W _ _ Hh] Hs Hm. split; assumption. Qed.

Lemma epoch_effs_run rs : forall c d, d_ep d = c ->
  (forall n, exists i, run_effs d (firstn n (epoch_effs c rs)) = with_ep d (cache_assign_all c (firstn i rs))) /\
  run_effs d (epoch_effs c rs) = with_ep d (cache_assign_all c rs).
Proof.
  induction rs as [|r t IH]; intros c d Hc.
  - cbn [epoch_effs]. split; [intros n; exists O; destruct n; cbn; rewrite <- Hc; symmetry; apply with_ep_same|].
    cbn. rewrite <- Hc. symmetry. apply with_ep_same.
  - cbn [epoch_effs]. set (c1 := cache_assign c (r_ep r) (r_off r)).
    assert (Hall : forall u, cache_assign_all c (r :: u) = cache_assign_all c1 u) by reflexivity.
    destruct ((cache_latest_epoch c <? r_ep r)%N && (cache_latest_off c <=? r_off r)) eqn:E.
    + specialize (IH c1 (with_ep d c1) eq_refl). destruct IH as [IH1 IH2]. split.
      * intros [|n]; [exists O; cbn; rewrite <- Hc; symmetry; apply with_ep_same|].
        (* running the one effect FEpochs c1 is with_ep _ c1 *)
        cbn [app firstn]. change (run_effs d (FEpochs c1 :: firstn n (epoch_effs c1 t))) with (run_effs (with_ep d c1) (firstn n (epoch_effs c1 t))).
        destruct (IH1 n) as (i & Hi). exists (S i). rewrite Hi. cbn [firstn]. rewrite Hall. reflexivity.
      * cbn [app]. change (run_effs d (FEpochs c1 :: epoch_effs c1 t)) with (run_effs (with_ep d c1) (epoch_effs c1 t)).
        rewrite IH2, Hall. reflexivity.
    + assert (Ec : c1 = c) by (unfold c1, cache_assign; rewrite E; reflexivity).
      cbn [app]. rewrite Ec in *. specialize (IH c d Hc). destruct IH as [IH1 IH2]. split.
      * intros n. destruct (IH1 n) as (i & Hi). exists (S i). rewrite Hi. cbn [firstn]. rewrite Hall. reflexivity.
      * rewrite IH2, Hall. reflexivity.
Qed.

Lemma good_active s : Good s -> exists pre a, d_segs (s_disk s) = pre ++ [a] /\ d_active (s_disk s) = a /\
  m_idx a = Some (m_recs a) /\ next_of s = s_next (m_seg a) /\ 0 <= m_base a /\
  (forall m, In m pre -> m_base m < m_base a) /\
  (forall x, In x (content (s_disk s)) -> r_off x < s_next (m_seg a)).
Proof.
  intros G. destruct (exists_last (g_ne _ G)) as (pre & a & E). exists pre, a.
  assert (Ha : d_active (s_disk s) = a) by (unfold d_active; rewrite E; apply last_last).
  assert (Hin : In a (d_segs (s_disk s))) by (rewrite E; apply in_elt).
  pose proof (g_wf _ G) as Hw. unfold segs_of in Hw.
  assert (H0 : 0 <= m_base a) by (apply (WF_base_nonneg _ (m_seg a) Hw), in_map, Hin).
  split; [exact E|]. split; [exact Ha|]. split; [apply (g_idx _ G); exact Hin|]. split; [|split; [exact H0|]].
  - unfold next_of. rewrite Ha. apply m_next_consistent; [apply (g_idx _ G); exact Hin|exact H0|apply (wf_sorted _ Hw (m_seg a)), in_map, Hin].
  - rewrite content_flat. unfold segs_of. revert Hw. rewrite E, map_app. intros Hw. split; [|exact (WF_all_below_next _ _ Hw)].
    apply WF_app in Hw. destruct Hw as (_ & _ & Hab). intros m Hm. apply (Hab (m_seg m) (m_seg a)); [apply in_map; exact Hm|left; reflexivity].
Qed.

Lemma good_base_le s m : Good s -> In m (d_segs (s_disk s)) -> m_base m <= next_of s.
Proof.
  intros G Hm. destruct (good_active s G) as (pre & a & E & _ & _ & -> & H0 & Hpre & _).
  assert (Hge : m_base a <= s_next (m_seg a)).
  { apply (s_next_ge (m_seg a) H0), (wf_sorted _ (g_wf _ G)), in_map. rewrite E. apply in_elt. }
  rewrite E in Hm. apply in_app_or in Hm. destruct Hm as [Hm|[<-|[]]]; [specialize (Hpre m Hm); lia|exact Hge].
Qed.

Lemma good_next_nonneg s : Good s -> 0 <= next_of s.
Proof.
  intros G. destruct (good_active s G) as (pre & a & E & _ & _ & _ & H0 & _).
  pose proof (good_base_le s a G ltac:(rewrite E; apply in_elt)). lia.
Qed.

Lemma good_cfit s : Good s -> cfit (d_ep (s_disk s)) (next_of s) (content (s_disk s)).
Proof.
  intros G. split; [exact (g_csorted _ G)|]. split; [exact (g_cbound _ G)|]. split; [exact (g_cmatch _ G)|].
  destruct (good_active s G) as (pre & a & _ & _ & _ & -> & _ & _ & Hbelow). exact Hbelow.
Qed.

Lemma content_snoc_empty pre b i : concat (map m_recs (pre ++ [mkM (mkSeg b []) i])) = concat (map m_recs pre).
Proof. rewrite map_app, concat_app. cbn. apply app_nil_r. Qed.

Lemma content_extend_last pre a b i rs :
  concat (map m_recs (pre ++ [mkM (mkSeg b (m_recs a ++ rs)) i])) = concat (map m_recs (pre ++ [a])) ++ rs.
Proof. rewrite !map_app, !concat_app. cbn [map concat m_recs m_seg s_recs]. rewrite !app_nil_r, app_assoc. reflexivity. Qed.

Lemma write_caches s rs i : Good s -> sorted_from (next_of s) rs -> ep_mono (cache_latest_epoch (d_ep (s_disk s))) rs ->
  cfit (cache_assign_all (d_ep (s_disk s)) (firstn i rs)) (next_after (next_of s) (firstn i rs)) (content (s_disk s) ++ firstn i rs).
Proof.
  intros G Hsort Hmono.
  apply (cfit_assign_all (firstn i rs) _ _ _ (good_next_nonneg s G) (good_cfit s G) (sorted_from_firstn _ _ _ Hsort) (ep_mono_firstn _ _ _ Hmono)).
Qed.

(* The directories of a write once its epochs are flushed (dE): the active segment a holds lg after its
   own records, under the index i (W lg i). The two appends lead from one to another; where lg is a
   prefix of the batch and the index can be repaired, W lg i is a crash image. *)
Lemma write_states H d1 pre a rs : Good (mkSt d1 H) -> d_segs d1 = pre ++ [a] -> sorted_from (m_next (d_active d1)) rs ->
  ep_mono (cache_latest_epoch (d_ep d1)) rs ->
  let dE := with_ep d1 (cache_assign_all (d_ep d1) rs) in
  let W lg i := set_segs dE (pre ++ [mkM (mkSeg (m_base a) (m_recs a ++ lg)) i]) in
  (forall lg, apply_eff dE (FAppendLog (TMain (m_base a)) lg) = W lg (Some (m_recs a))) /\
  (forall lg i ents, apply_eff (W lg i) (FAppendIdx (TMain (m_base a)) ents) = W lg (app_opt i ents)) /\
  (forall lg i, seg_get (d_segs (W lg i)) (m_base a) = Some (mkM (mkSeg (m_base a) (m_recs a ++ lg)) i)) /\
  (forall k i, fixable (mkM (mkSeg (m_base a) (m_recs a ++ firstn k rs)) i) ->
     Mid H (W (firstn k rs) i) /\ content (W (firstn k rs) i) = content d1 ++ firstn k rs).
Proof.
  intros G E Hsort Hmono dE W. pose proof (g_wf _ G) as Hw. cbn [s_disk] in Hw.
  destruct (good_active _ G) as (pre' & a' & E' & _ & Hidx & Hnx & _ & Hpre & _). unfold next_of in Hnx. cbn [s_disk] in E', Hnx. rewrite E in E'.
  apply app_inj_tail in E'. destruct E' as [<- <-].
  assert (Hp : forall m, In m pre -> m_base m <> m_base a) by (intros m Hin; exact (Z.lt_neq _ _ (Hpre m Hin))).
  split; [|split; [|split]].
  - intros lg. cbn [apply_eff mapply dE with_ep d_segs]. rewrite E, seg_upd_mid, Hidx by exact Hp. reflexivity.
  - intros lg i ents. cbn [apply_eff mapply W set_segs d_segs]. exact (f_equal (set_segs dE) (seg_upd_mid pre (mkM (mkSeg (m_base a) (m_recs a ++ lg)) i) [] _ Hp)).
  - intros lg i. exact (seg_get_mid pre (mkM (mkSeg (m_base a) (m_recs a ++ lg)) i) [] Hp).
  - intros k i Hfix. set (lg := firstn k rs) in *.
    destruct (cfit_assign_all rs _ _ _ (good_next_nonneg _ G) (good_cfit _ G) Hsort Hmono) as [(Hcs & _ & Hcm & _) _].
    assert (Hc : content (W lg i) = content d1 ++ lg) by (unfold content at 1 2, W; cbn [set_segs d_segs]; rewrite E; apply content_extend_last).
    split; [|exact Hc]. split; [| |exact Hcs| |exact (g_hw _ G)].
    + unfold W. cbn [set_segs d_segs]. intros x Hx. apply in_app_or in Hx. destruct Hx as [Hx|[<-|[]]]; [|exact Hfix].
      apply idx_fixable, (g_idx _ G). cbn [s_disk]. rewrite E. apply in_or_app. left. exact Hx.
    + apply (sorted_from_firstn _ _ k) in Hsort. fold lg in Hsort. rewrite Hnx in Hsort.
      unfold segs_of in Hw. rewrite E, map_app in Hw. unfold segs_of, W. cbn [set_segs d_segs]. rewrite map_app.
      exact (WF_extend_last (map m_seg pre) (m_seg a) lg Hw Hsort).
    + rewrite Hc. intros x Hx. apply Hcm. apply in_app_or in Hx. apply in_or_app. destruct Hx as [Hx|Hx]; [left; exact Hx|right].
      rewrite <- (firstn_skipn k rs). apply in_or_app. left. exact Hx.
Qed.

Section Ops.
  Variable p : params.
  Hypothesis maxb_pos : 0 < p_maxb p.

  (* what the recovered log is allowed to be, in terms of the crash image d *)
  Definition Image (s : st) (o : dop) (keep : rec -> Prop) (d : disk) : Prop :=
    Mid (s_hw s) d /\
    (forall x, In x (content d) -> In x (content (s_disk s)) \/ In x (incoming s o)) /\
    (forall x, In x (content (s_disk s)) -> keep x -> In x (content d)).

  Lemma image_same_content s o keep d : Mid (s_hw s) d -> content d = content (s_disk s) -> Image s o keep d.
  Proof. intros Hm Hc. split; [exact Hm|]. rewrite Hc. split; [intros x Hx; left; exact Hx|intros x Hx _; exact Hx]. Qed.

  Lemma good_image s o keep : Good s -> Image s o keep (s_disk s).
  Proof. intros G. apply image_same_content; [apply good_mid; exact G|reflexivity]. Qed.

  (* the segments after checkAndPerformSplit, as the in-memory model (Log.Model.check_split) has them *)
  Definition split_segs (segs : list seg) : list seg :=
    match rev segs with
    | [] => segs
    | a :: _ => if p_maxb p <=? s_pos a then segs ++ [mkSeg (s_next a) []] else segs
    end.

  Definition rolled (s : st) (d1 : disk) : Prop :=
    Good (mkSt d1 (s_hw s)) /\ content d1 = content (s_disk s) /\ d_ep d1 = d_ep (s_disk s) /\
    m_next (d_active d1) = next_of s /\ d_hw d1 = d_hw (s_disk s) /\
    segs_of d1 = split_segs (segs_of (s_disk s)).

  Lemma split_seq s o keep : Good s -> exists sp, split_effs (p_maxb p) (s_disk s) = Some sp /\
    seq (Image s o keep) (fun d => d = s_disk s) sp (rolled s).
  Proof.
    intros G. destruct (good_active s G) as (pre & a & E & Ha & Hidx & Hnx & H0 & Hpre & Hbelow).
    assert (Hsplit : split_segs (segs_of (s_disk s)) =
              if p_maxb p <=? m_pos a then segs_of (s_disk s) ++ [mkSeg (next_of s) []] else segs_of (s_disk s)).
    { unfold split_segs, segs_of. rewrite E, map_app, rev_app_distr. cbn [map rev app]. rewrite s_pos_fsize, Hnx. reflexivity. }
    unfold split_effs. unfold next_of in Hnx, Hsplit. rewrite Ha in *. revert Hsplit.
    destruct (Z.leb_spec (p_maxb p) (m_pos a)) as [Hfull|Hroom]; intros Hsplit.
    2:{ exists []. split; [reflexivity|]. apply seq_from, seq_end; [apply good_image; exact G|].
        split; [destruct s; exact G|]. unfold next_of. rewrite Ha, Hsplit. repeat split; reflexivity. }
    set (d0 := s_disk s) in *. set (nb := m_next a) in *.
    assert (Hina : In (m_seg a) (segs_of d0)) by (apply in_map; rewrite E; apply in_elt).
    assert (Hgt : m_base a < nb).
    { destruct (m_recs a) as [|r0 t0] eqn:Er; [unfold m_pos in Hfull; rewrite Er in Hfull; cbn in Hfull; clear -Hfull maxb_pos; lia|].
      pose proof (WF_range _ (m_seg a) r0 (g_wf _ G) Hina ltac:(fold (m_recs a); rewrite Er; left; reflexivity)) as Hr.
      rewrite Hnx. exact (Z.le_lt_trans _ _ _ (proj1 Hr) (proj2 Hr)). }
    assert (Hall : forall m, In m (d_segs d0) -> m_base m < nb).
    { intros m Hin. rewrite E in Hin. apply in_app_or in Hin. destruct Hin as [Hin|[<-|[]]]; [exact (Z.lt_trans _ _ _ (Hpre m Hin) Hgt)|exact Hgt]. }
    assert (Hget : seg_get (d_segs d0) nb = None).
    { apply seg_get_none_notin. intros m Hin. exact (Z.lt_neq _ _ (Hall m Hin)). }
    rewrite Hget. eexists. split; [reflexivity|].
    set (n0 := mkM (mkSeg nb []) None). set (n1 := mkM (mkSeg nb []) (Some [])).
    set (dA := with_main d0 (d_segs d0 ++ [n0]) []). set (dB := with_main d0 (d_segs d0 ++ [n1]) []).
    assert (Ea : apply_eff d0 (FCreateLog (TMain nb)) = dA).
    { cbn [apply_eff mapply]. rewrite Hget, (g_orph _ G : d_orph d0 = []). cbn [orph_get orph_del filter].
      rewrite seg_ins_end by (intros m Hin; cbn; apply Hall; exact Hin). reflexivity. }
    assert (Eb : apply_eff dA (FCreateIdx (TMain nb)) = dB).
    { cbn [apply_eff mapply dA with_main d_segs]. change nb with (m_base n0).
      rewrite seg_get_mid, seg_upd_mid by exact (proj1 (seg_get_none_notin _ _) Hget).
      reflexivity. }
    assert (HcB : content dB = content d0) by apply content_snoc_empty.
    assert (Hact : d_active dB = n1) by (unfold d_active, dB; cbn [d_segs with_main]; apply last_last).
    assert (GB : Good (mkSt dB (s_hw s))).
    { split; cbn [s_disk s_hw]; [|unfold segs_of| | | |rewrite Hact|rewrite HcB|]; cbn [dB d_segs with_main d_orph d_ep d_hw].
      - destruct (d_segs d0); discriminate.
      - rewrite map_app. apply WF_add_empty; [exact (g_wf _ G)|exact (Z.le_trans _ _ _ H0 (Z.lt_le_incl _ _ Hgt))|].
        intros sg Hin. apply in_map_iff in Hin. destruct Hin as (m & <- & Hm). split; [apply Hall; exact Hm|].
        intros x Hx. rewrite Hnx. apply Hbelow. rewrite content_flat. apply in_concat_map. exists (m_seg m). split; [apply in_map; exact Hm|exact Hx].
      - intros m Hin. apply in_app_or in Hin. destruct Hin as [Hin|[<-|[]]]; [apply (g_idx _ G m Hin)|reflexivity].
      - reflexivity.
      - exact (g_csorted _ G).
      - pose proof (g_cbound _ G) as Hb. fold d0 in Hb. rewrite Ha in Hb. exact Hb.
      - exact (g_cmatch _ G).
      - exact (g_hw _ G). }
    assert (MA : Mid (s_hw s) dA).
    { apply (Mid_same_segs _ dB); [exact (good_mid _ GB)| | |reflexivity|reflexivity].
      - unfold segs_of, dA, dB. cbn [d_segs with_main]. rewrite !map_app. reflexivity.
      - intros m Hin. cbn [dA d_segs with_main] in Hin. apply in_app_or in Hin.
        destruct Hin as [Hin|[<-|[]]]; [apply idx_fixable, (g_idx _ G m Hin)|left; reflexivity]. }
    apply seq_from, seq_step; [apply good_image; exact G|]. rewrite Ea.
    apply seq_cons_point, seq_step; [apply image_same_content; [exact MA|apply content_snoc_empty]|]. rewrite Eb.
    apply seq_cons_point, seq_end; [apply image_same_content; [exact (good_mid _ GB)|exact HcB]|].
    split; [exact GB|]. split; [exact HcB|]. split; [reflexivity|]. split; [rewrite Hact; unfold next_of; fold d0; rewrite Ha; reflexivity|]. split; [reflexivity|].
    fold d0. rewrite Hsplit. unfold segs_of, dB. cbn [d_segs with_main]. rewrite map_app. reflexivity.
  Qed.

  (* the segments and the cache after a write, as the in-memory model (Log.Model.write) has them *)
  Definition written (d1 : disk) (rs : list rec) (d : disk) : Prop :=
    segs_of d = upd_last (fun a => mkSeg (s_base a) (s_recs a ++ rs)) (segs_of d1) /\
    d_ep d = cache_assign_all (d_ep d1) rs /\ d_hw d = d_hw d1.

  Lemma write_seq H d1 rs (R : disk -> Prop) :
    Good (mkSt d1 H) -> rs <> [] -> sorted_from (m_next (d_active d1)) rs -> ep_mono (cache_latest_epoch (d_ep d1)) rs ->
    (forall d, Mid H d -> (content d = content d1 \/ content d = content d1 ++ rs) -> R d) ->
    seq R (fun d => d = d1) (write_effs fixed (d_ep d1) (m_base (d_active d1)) rs)
        (fun d => Good (mkSt d H) /\ content d = content d1 ++ rs /\ written d1 rs d).
  Proof.
    intros G Hne Hsort Hmono HR. set (s := mkSt d1 H) in G.
    destruct (good_active _ G) as (pre & a & E & Ha & _ & Hnx & H0 & _). cbn [s s_disk] in E, Ha.
    pose proof (fun i => write_caches s rs i G Hsort Hmono) as Hc. cbn [s s_disk] in Hc.
    pose proof (Hc (length rs)) as (_ & FB & _). rewrite firstn_all in FB.
    pose proof (write_states H d1 pre a rs G E Hsort Hmono) as (EL & EI & _ & HM). cbn beta zeta in EL, EI, HM.
    specialize (EL rs). specialize (EI rs (Some (m_recs a)) rs). specialize (HM (length rs)). rewrite firstn_all in HM.
    destruct (HM (Some (m_recs a))) as [ML CL].
    { right. unfold m_fi. cbn [m_idx m_recs m_seg s_recs]. rewrite fsize_app. pose proof (fsize_pos_ne rs Hne) as Hp. clear -Hp. lia. }
    destruct (HM (Some (m_recs a ++ rs))) as [MI CI]; [left; reflexivity|]. clear HM.
    cbn [app_opt] in EI.
    rewrite Ha. set (c0 := d_ep d1) in *. set (cF := cache_assign_all c0 rs) in *. set (dE := with_ep d1 cF) in *.
    set (aI := mkM (mkSeg (m_base a) (m_recs a ++ rs)) (Some (m_recs a ++ rs))) in *.
    set (dL := set_segs dE (pre ++ [mkM (mkSeg (m_base a) (m_recs a ++ rs)) (Some (m_recs a))])) in *. set (dI := set_segs dE (pre ++ [aI])) in *.
    assert (HRE : forall i, R (with_ep d1 (cache_assign_all c0 (firstn i rs)))).
    { intros i. destruct (Hc i) as (A & _ & B & _). apply HR; [|left; reflexivity].
      apply (Mid_with_ep H d1); [exact (good_mid _ G)|exact A|]. intros x Hx. apply B, in_or_app. left. exact Hx. }
    assert (HgoodI : Good (mkSt dI H)).
    { pose proof (mi_wf _ _ MI) as Hw. apply (mid_good H dI MI); cbn [dI set_segs d_segs d_orph d_ep dE with_ep].
      - destruct pre; discriminate.
      - intros m Hin. apply in_app_or in Hin. destruct Hin as [Hin|[<-|[]]]; [|reflexivity].
        apply (g_idx _ G m). cbn [s s_disk]. rewrite E. apply in_or_app. left. exact Hin.
      - exact (g_orph _ G).
      - assert (Hact : d_active dI = aI) by (unfold d_active, dI; cbn [set_segs d_segs]; apply last_last).
        assert (HaI : In (m_seg aI) (segs_of dI)) by (apply in_map; cbn [dI set_segs d_segs]; apply in_elt).
        pose proof (wf_sorted _ Hw _ HaI) as HsI.
        fold dE. fold dI. rewrite Hact, m_next_consistent; [|reflexivity|exact H0|exact HsI].
        rewrite s_next_eq. cbn [aI m_seg s_recs s_base]. rewrite (next_after_app _ _ _ H0 HsI). rewrite Hnx, s_next_eq in FB. exact FB. }
    apply seq_from, (seq_app R _ _ (eq dE)).
    { intros d <-. destruct (epoch_effs_run rs c0 d1 eq_refl) as [P1 P2]. split; [|rewrite P2; reflexivity].
      intros n. destruct (P1 n) as (i & ->). apply HRE. }
    assert (RE : R dE) by (specialize (HRE (length rs)); rewrite firstn_all in HRE; exact HRE).
    assert (RL : R dL) by (apply HR; [exact ML|right; exact CL]).
    assert (RI : R dI) by (apply HR; [exact MI|right; exact CI]).
    apply seq_cons_point, seq_step; [exact RE|]. rewrite EL.
    apply seq_cons_point, seq_step; [exact RL|]. rewrite EI.
    apply seq_cons_point, seq_end; [exact RI|].
    split; [exact HgoodI|split; [exact CI|]].
    unfold written, segs_of, dI. cbn [set_segs d_segs d_ep d_hw dE with_ep]. rewrite E, !map_app. cbn [map].
    rewrite upd_last_snoc. repeat split; reflexivity.
  Qed.

  Definition appended (s : st) (rs : list rec) (d : disk) : Prop :=
    Good (mkSt d (s_hw s)) /\ content d = content (s_disk s) ++ rs /\
    segs_of d = upd_last (fun a => mkSeg (s_base a) (s_recs a ++ rs)) (split_segs (segs_of (s_disk s))) /\
    d_ep d = cache_assign_all (d_ep (s_disk s)) rs /\ d_hw d = d_hw (s_disk s).

  Lemma write_op_seq s o rs keep : Good s -> incoming s o = rs -> rs <> [] ->
    sorted_from (next_of s) rs -> ep_mono (cache_latest_epoch (d_ep (s_disk s))) rs ->
    exists sp, split_effs (p_maxb p) (s_disk s) = Some sp /\
      let d1 := run_effs (s_disk s) sp in
      m_next (d_active d1) = next_of s /\
      seq (Image s o keep) (fun d => d = s_disk s) (sp ++ write_effs fixed (d_ep (s_disk s)) (m_base (d_active d1)) rs) (appended s rs).
  Proof.
    intros G Hinc Hne Hsort Hmono. destruct (split_seq s o keep G) as (sp & Esp & Hseq). exists sp. split; [exact Esp|]. cbn zeta.
    destruct (Hseq _ eq_refl) as [Hall Hroll]. set (d1 := run_effs (s_disk s) sp) in *.
    destruct Hroll as (G1 & Hc1 & Hep1 & Hnx1 & Hhw1 & Hsg1). split; [exact Hnx1|].
    apply (seq_app _ _ _ (fun d => d = d1)); [intros d ->; split; [exact Hall|reflexivity]|]. rewrite <- Hep1.
    apply (seq_conseq (Image s o keep) (fun d => d = d1) _ (fun d => Good (mkSt d (s_hw s)) /\ content d = content d1 ++ rs /\ written d1 rs d) _); [auto| |].
    - intros d (A & B & (W1 & W2 & W3)). split; [exact A|split; [rewrite B, Hc1; reflexivity|]].
      split; [rewrite W1, Hsg1; reflexivity|split; [rewrite W2, Hep1; reflexivity|rewrite W3; exact Hhw1]].
    - apply (write_seq (s_hw s) d1 rs); [exact G1|exact Hne|rewrite Hnx1; exact Hsort|rewrite Hep1; exact Hmono|].
      intros d Hm Hc. split; [exact Hm|]. rewrite Hc1 in Hc. split.
      + intros x Hx. destruct Hc as [Hc|Hc]; rewrite Hc in Hx; [left; exact Hx|]. apply in_app_or in Hx. rewrite Hinc. exact Hx.
      + intros x Hx _. destruct Hc as [Hc|Hc]; rewrite Hc; [exact Hx|apply in_or_app; left; exact Hx].
  Qed.

  Lemma number_ne n ms : ms <> [] -> number n ms <> [].
  Proof. destruct ms; [contradiction|discriminate]. Qed.

  Definition with_hw (d : disk) (h : Z) : disk := mkDisk (d_segs d) (d_orph d) (d_scr d) h (d_ep d).

  Lemma good_with_hw s h : Good s -> h <= s_hw s -> Good (mkSt (with_hw (s_disk s) h) (s_hw s)).
  Proof.
    intros G Hh. split; cbn [s_disk s_hw with_hw d_segs d_orph d_ep d_hw]; try apply G. exact Hh.
  Qed.

  Lemma checkpoint_seq s o keep : Good s ->
    seq (Image s o keep) (fun d => d = s_disk s) [FHw (s_hw s)] (fun d => d = with_hw (s_disk s) (s_hw s)).
  Proof.
    intros G. apply seq_from, seq_step; [apply good_image; exact G|]. apply seq_end; [|reflexivity].
    exact (good_image _ o keep (good_with_hw s (s_hw s) G (Z.le_refl _))).
  Qed.

  Lemma epoch_seq s o keep e : Good s ->
    let c := d_ep (s_disk s) in
    seq (Image s o keep) (fun d => d = s_disk s)
        (if (cache_latest_epoch c <? e)%N && (cache_latest_off c <=? next_of s) then [FEpochs (cache_assign c e (next_of s))] else [])
        (fun d => d = with_ep (s_disk s) (cache_assign c e (next_of s)) /\ Good (mkSt d (s_hw s))).
  Proof.
    intros G c. destruct (good_cfit s G) as (Hs & Hb & Hm & Hlt). fold c in Hs, Hb, Hm.
    assert (G' : Good (mkSt (with_ep (s_disk s) (cache_assign c e (next_of s))) (s_hw s))).
    { split; cbn [s_disk s_hw with_ep d_segs d_orph d_ep d_hw]; try apply G.
      - apply assign_sorted. exact Hs.
      - apply assign_bound; [exact Hb|apply Z.le_refl].
      - apply (cmatch_ext c); [|exact Hm]. intros x Hx. apply epoch_at_assign, Hlt, Hx. }
    apply seq_from. unfold cache_assign in *. destruct ((cache_latest_epoch c <? e)%N && (cache_latest_off c <=? next_of s)).
    - apply seq_step; [apply good_image; exact G|]. apply seq_end; [exact (good_image _ o keep G')|split; [reflexivity|exact G']].
    - apply seq_end; [apply good_image; exact G|]. unfold c in *. rewrite with_ep_same in *. split; [reflexivity|exact G'].
  Qed.
End Ops.
