(* The tail reader's wake-up protocol (Log/TailWait.v), for every schedule: a reader registered as a
   waiter has consumed the whole log unless the seal that wakes it is still to come, and it leaves a
   segment only when it has consumed all of it. Both fail on the pinned code. With the writers quiet a
   reader behind the end of the log delivers within a bounded number of its own steps (rank). *)
From LB Require Import Base.Prelude Log.TailWait.
Open Scope Z_scope.

Lemma set_nth_length {A} (l : list A) i x : length (set_nth l i x) = length l.
Proof. revert i. induction l as [|y t IH]; intros i; destruct i; cbn; try reflexivity. rewrite IH. reflexivity. Qed.

Lemma nth_set_nth l i x j : (i < length l)%nat -> nth_sg (set_nth l i x) j = if Nat.eqb j i then x else nth_sg l j.
Proof.
  unfold nth_sg. revert i j. induction l as [|y t IH]; intros i j H; [cbn in H; lia|].
  destruct i, j; cbn [set_nth nth Nat.eqb]; try reflexivity. apply IH. cbn in H. lia.
Qed.

Lemma nth_snoc l x j : nth_sg (l ++ [x]) j = if (j <? length l)%nat then nth_sg l j else if Nat.eqb j (length l) then x else mkSg 0 1 false.
Proof.
  unfold nth_sg. destruct (Nat.ltb_spec j (length l)); [apply app_nth1; assumption|].
  rewrite app_nth2 by lia. destruct (Nat.eqb_spec j (length l)) as [->|N]; [rewrite Nat.sub_diag; reflexivity|].
  destruct (j - length l)%nat eqn:E; [lia|]. cbn. destruct n; reflexivity.
Qed.

Lemma removelast_length {A} (l : list A) : length (removelast l) = (length l - 1)%nat.
Proof. induction l as [|x t IH]; [reflexivity|]. destruct t; [reflexivity|]. cbn [removelast length] in *. rewrite IH. lia. Qed.

Lemma nth_removelast l j : (j < length l - 1)%nat -> nth_sg (removelast l) j = nth_sg l j.
Proof.
  unfold nth_sg. revert j. induction l as [|x t IH]; intros j H; [cbn in H; lia|]. destruct t as [|y u]; [cbn in H; lia|].
  destruct j; [reflexivity|]. cbn [removelast nth]. apply IH. cbn [length] in *. lia.
Qed.

Ltac simp_rd := cbn [s_segs s_pending s_rd t_seg t_pos t_snap t_waiting t_phase t_got] in *.

(* i_old: the segments before the active one are sealed, but for the one whose seal a roll still owes; with
   i_park, a reader parked on a segment other than the active one has its wake-up still to come.
   i_once: a reader that has been through waitForData runs for a reason (data, a full segment, a next one).
   i_inner: the inner loop never reads its own segment again and misses nothing by it: the segment is
   consumed and cannot grow, being full or not the active one. i_once is what gives i_inner on entry. *)
Record tinv (s : tst) : Prop := {
  i_ne : (1 <= length (s_segs s))%nat;
  i_seg : (t_seg (s_rd s) < t_snap (s_rd s) <= length (s_segs s))%nat;
  i_len : forall i, 0 <= g_len (nth_sg (s_segs s) i);
  i_pos : 0 <= t_pos (s_rd s) <= g_len (nth_sg (s_segs s) (t_seg (s_rd s)));
  i_act : g_sealed (nth_sg (s_segs s) (last_idx (s_segs s))) = false;
  i_old : forall i, (i < last_idx (s_segs s))%nat -> g_sealed (nth_sg (s_segs s) i) = true \/ s_pending s = Some i;
  i_pend : forall i, s_pending s = Some i -> S i = last_idx (s_segs s) /\ g_sealed (nth_sg (s_segs s) i) = false;
  i_park : t_phase (s_rd s) = Parked ->
           t_pos (s_rd s) = g_len (nth_sg (s_segs s) (t_seg (s_rd s))) /\
           full (nth_sg (s_segs s) (t_seg (s_rd s))) = false /\
           g_sealed (nth_sg (s_segs s) (t_seg (s_rd s))) = false /\
           (t_seg (s_rd s) = last_idx (s_segs s) \/ s_pending s = Some (t_seg (s_rd s)));
  i_inner : t_waiting (s_rd s) = 2%N ->
            t_pos (s_rd s) = g_len (nth_sg (s_segs s) (t_seg (s_rd s))) /\
            (full (nth_sg (s_segs s) (t_seg (s_rd s))) = true \/ (t_seg (s_rd s) < last_idx (s_segs s))%nat);
  i_once : t_phase (s_rd s) = Running -> t_waiting (s_rd s) = 1%N ->
           t_pos (s_rd s) < g_len (nth_sg (s_segs s) (t_seg (s_rd s))) \/
           full (nth_sg (s_segs s) (t_seg (s_rd s))) = true \/ (t_seg (s_rd s) < last_idx (s_segs s))%nat;
  i_w : (t_waiting (s_rd s) <= 2)%N
}.

(* The invariant in two parts: what the segment list and the outstanding seal look like, and where the
   reader stands. The second part sees of the list only the index [a] of the active segment and the
   one segment [g] the reader is on. *)
Record shape_ok (segs : list sg) (pend : option nat) : Prop := {
  h_ne : (1 <= length segs)%nat;
  h_len : forall i, 0 <= g_len (nth_sg segs i);
  h_act : g_sealed (nth_sg segs (last_idx segs)) = false;
  h_old : forall i, (i < last_idx segs)%nat -> g_sealed (nth_sg segs i) = true \/ pend = Some i;
  h_pend : forall i, pend = Some i -> S i = last_idx segs /\ g_sealed (nth_sg segs i) = false
}.

Record rd_ok (a : nat) (pend : option nat) (g : sg) (r : tr) : Prop := {
  r_seg : (t_seg r < t_snap r <= S a)%nat;
  r_pos : 0 <= t_pos r <= g_len g;
  r_park : t_phase r = Parked ->
           t_pos r = g_len g /\ full g = false /\ g_sealed g = false /\ (t_seg r = a \/ pend = Some (t_seg r));
  r_inner : t_waiting r = 2%N -> t_pos r = g_len g /\ (full g = true \/ (t_seg r < a)%nat);
  r_once : t_phase r = Running -> t_waiting r = 1%N -> t_pos r < g_len g \/ full g = true \/ (t_seg r < a)%nat;
  r_w : (t_waiting r <= 2)%N
}.

Lemma tinv_parts s : tinv s <->
  shape_ok (s_segs s) (s_pending s) /\
  rd_ok (last_idx (s_segs s)) (s_pending s) (nth_sg (s_segs s) (t_seg (s_rd s))) (s_rd s).
Proof.
  unfold last_idx. split.
  - intros [Hne Hseg Hlen Hpos Hact Hold Hpend Hpark Hinner Honce Hw].
    split; constructor; try assumption. clear - Hne Hseg. lia.
  - intros [[Hne Hlen Hact Hold Hpend] [Hseg Hpos Hpark Hinner Honce Hw]]. constructor; try assumption. clear - Hne Hseg. lia.
Qed.

Lemma last_idx_set_nth l i x : last_idx (set_nth l i x) = last_idx l.
Proof. unfold last_idx. rewrite set_nth_length. reflexivity. Qed.

Lemma shape_length segs pend : shape_ok segs pend -> length segs = S (last_idx segs).
Proof. intros [Hne _ _ _ _]. unfold last_idx. lia. Qed.

(* an append, or the copy a truncation leaves, in place of the active segment *)
Lemma shape_set_last segs pend x : shape_ok segs pend -> 0 <= g_len x -> g_sealed x = false ->
  shape_ok (set_nth segs (last_idx segs) x) pend.
Proof.
  intros Hs Hx Sx. pose proof (shape_length _ _ Hs) as Hl.
  assert (Hn : forall j, nth_sg (set_nth segs (last_idx segs) x) j = if Nat.eqb j (last_idx segs) then x else nth_sg segs j)
    by (intros j; apply nth_set_nth; lia).
  constructor; rewrite ?last_idx_set_nth, ?set_nth_length.
  - exact (h_ne _ _ Hs).
  - intros j. rewrite Hn. destruct (Nat.eqb j (last_idx segs)); [exact Hx|apply (h_len _ _ Hs)].
  - rewrite Hn, Nat.eqb_refl. exact Sx.
  - intros j Hj. rewrite Hn. destruct (Nat.eqb_spec j (last_idx segs)); [lia|apply (h_old _ _ Hs); exact Hj].
  - intros j Hj. destruct (h_pend _ _ Hs j Hj) as [A B]. split; [exact A|]. rewrite Hn. destruct (Nat.eqb_spec j (last_idx segs)); [lia|exact B].
Qed.

Lemma last_idx_snoc l x : last_idx (l ++ [x]) = length l.
Proof. unfold last_idx. rewrite app_length. cbn. lia. Qed.

Lemma shape_roll segs c : shape_ok segs None -> shape_ok (segs ++ [mkSg 0 c false]) (Some (last_idx segs)).
Proof.
  intros Hs. pose proof (shape_length _ _ Hs) as Hl. set (nw := mkSg 0 c false).
  assert (Hn : forall j, (j <= last_idx segs)%nat -> nth_sg (segs ++ [nw]) j = nth_sg segs j).
  { intros j Hj. rewrite nth_snoc. destruct (Nat.ltb_spec j (length segs)); [reflexivity|lia]. }
  constructor; rewrite ?last_idx_snoc.
  - rewrite app_length. cbn. lia.
  - intros j. rewrite nth_snoc. destruct (j <? length segs)%nat; [apply (h_len _ _ Hs)|]. destruct (Nat.eqb j (length segs)); apply Z.le_refl.
  - rewrite nth_snoc, Nat.ltb_irrefl, Nat.eqb_refl. reflexivity.
  - rewrite Hl. intros j Hj. destruct (Nat.eq_dec j (last_idx segs)) as [->|Nj]; [right; reflexivity|]. left. rewrite Hn by lia.
    destruct (h_old _ _ Hs j) as [S1|S1]; [lia|exact S1|discriminate].
  - rewrite Hl. intros j [= <-]. split; [reflexivity|]. rewrite Hn by lia. exact (h_act _ _ Hs).
Qed.

Lemma shape_seal segs p x : shape_ok segs (Some p) -> 0 <= g_len x -> g_sealed x = true ->
  shape_ok (set_nth segs p x) None.
Proof.
  intros Hs Hx Sx. pose proof (shape_length _ _ Hs) as Hl. destruct (h_pend _ _ Hs p eq_refl) as [Ep _].
  assert (Hn : forall j, nth_sg (set_nth segs p x) j = if Nat.eqb j p then x else nth_sg segs j)
    by (intros j; apply nth_set_nth; lia).
  constructor; rewrite ?last_idx_set_nth, ?set_nth_length.
  - exact (h_ne _ _ Hs).
  - intros j. rewrite Hn. destruct (Nat.eqb j p); [exact Hx|apply (h_len _ _ Hs)].
  - rewrite Hn. destruct (Nat.eqb_spec (last_idx segs) p); [lia|exact (h_act _ _ Hs)].
  - intros j Hj. left. rewrite Hn. destruct (Nat.eqb_spec j p) as [E|N]; [exact Sx|].
    destruct (h_old _ _ Hs j Hj) as [S1|S1]; [exact S1|congruence].
  - discriminate.
Qed.

Lemma last_idx_drop segs i x : last_idx (set_nth (removelast segs) i x) = (last_idx segs - 1)%nat.
Proof. unfold last_idx. rewrite set_nth_length, removelast_length. reflexivity. Qed.

(* the active segment is deleted, and [x] stands for the one before it *)
Lemma nth_drop segs x j : (2 <= length segs)%nat -> (j < last_idx segs)%nat ->
  nth_sg (set_nth (removelast segs) (last_idx segs - 1) x) j = if Nat.eqb j (last_idx segs - 1) then x else nth_sg segs j.
Proof.
  unfold last_idx. intros H2 Hj. rewrite nth_set_nth by (rewrite removelast_length; lia).
  destruct (Nat.eqb j _); [reflexivity|]. apply nth_removelast. exact Hj.
Qed.

Lemma shape_drop segs x : shape_ok segs None -> (2 <= length segs)%nat -> 0 <= g_len x -> g_sealed x = false ->
  shape_ok (set_nth (removelast segs) (last_idx segs - 1) x) None.
Proof.
  intros Hs H2 Hx Sx. pose proof (shape_length _ _ Hs) as Hl.
  constructor; rewrite ?last_idx_drop; try discriminate.
  - rewrite set_nth_length, removelast_length. lia.
  - intros j. destruct (Nat.lt_ge_cases j (last_idx segs)) as [Hj|Hj].
    + rewrite nth_drop by assumption. destruct (Nat.eqb j _); [exact Hx|apply (h_len _ _ Hs)].
    + unfold nth_sg. rewrite nth_overflow by (rewrite set_nth_length, removelast_length; exact Hj). apply Z.le_refl.
  - rewrite nth_drop, Nat.eqb_refl by lia. exact Sx.
  - intros j Hj. left. rewrite nth_drop by lia. destruct (Nat.eqb_spec j (last_idx segs - 1)); [lia|].
    destruct (h_old _ _ Hs j) as [S1|S1]; [lia|exact S1|discriminate].
Qed.

Lemma shape_sealed segs pend i : shape_ok segs pend -> (i <= last_idx segs)%nat ->
  if g_sealed (nth_sg segs i) then (i < last_idx segs)%nat else i = last_idx segs \/ pend = Some i.
Proof.
  intros [_ _ Hact Hold _] Hi. destruct (Nat.eq_dec i (last_idx segs)) as [->|N].
  - rewrite Hact. left. reflexivity.
  - destruct (Hold i) as [->|E]; [lia|lia|]. destruct (g_sealed (nth_sg segs i)); [lia|right; exact E].
Qed.

Lemma wake_seg i r : t_seg (wake i r) = t_seg r.
Proof. unfold wake. destruct (Nat.eqb (t_seg r) i), (t_phase r); reflexivity. Qed.

Lemma wake_other i r : t_seg r <> i -> wake i r = r.
Proof. intros N. unfold wake. destruct (Nat.eqb_spec (t_seg r) i); [contradiction|reflexivity]. Qed.

Lemma wake_here r : wake (t_seg r) r =
  match t_phase r with Parked => mkTr (t_seg r) (t_pos r) (t_snap r) (t_waiting r) Running (t_got r) | _ => r end.
Proof. unfold wake. rewrite Nat.eqb_refl. reflexivity. Qed.

(* nothing happens to the reader or its segment; the active segment and the outstanding seal may change
   as long as a parked reader keeps its reason *)
Lemma rd_frame a pend a' pend' g r : rd_ok a pend g r -> (a <= a')%nat ->
  (t_seg r = a \/ pend = Some (t_seg r) -> t_seg r = a' \/ pend' = Some (t_seg r)) -> rd_ok a' pend' g r.
Proof.
  intros [Hseg Hpos Hpark Hinner Honce Hw] Ha Hp. constructor; try assumption.
  - clear - Hseg Ha. lia.
  - intros P. destruct (Hpark P) as (A & B & C & D). auto.
  - intros W. destruct (Hinner W) as [A [B|B]]; [auto|]. split; [exact A|right; exact (Nat.lt_le_trans _ _ _ B Ha)].
  - intros P W. destruct (Honce P W) as [A|[A|A]]; [auto..|]. right. right. exact (Nat.lt_le_trans _ _ _ A Ha).
Qed.

(* a reader that starts a call: TStep after a delivery or a move, and the reader created again by Replace *)
Lemma rd_fresh a pend g seg pos sn got : (seg < sn <= S a)%nat -> 0 <= pos <= g_len g ->
  rd_ok a pend g (mkTr seg pos sn 0 Running got).
Proof. intros Hs Hp. constructor; cbn; try discriminate; assumption || lia. Qed.

(* a message arrives in the reader's segment: a parked reader is woken with something to read *)
Lemma rd_append a pend g r : rd_ok a pend g r -> t_seg r = a -> full g = false ->
  rd_ok a pend (mkSg (g_len g + 1) (g_cap g) (g_sealed g)) (wake a r).
Proof.
  intros [Hseg Hpos Hpark Hinner Honce Hw] <- Ef. rewrite wake_here.
  assert (Hin : t_waiting r <> 2%N)
    by (intros W; destruct (Hinner W) as [_ [F|F]]; [congruence|exact (Nat.lt_irrefl _ F)]).
  destruct r as [seg pos snap w ph got]. simp_rd. assert (Hpos' : 0 <= pos <= g_len g + 1) by (clear - Hpos; lia).
  destruct ph; constructor; cbn; try assumption; try discriminate; try contradiction; intros P W.
  - destruct (Honce P W) as [A|[A|A]]; [left; clear - A; lia|congruence|destruct (Nat.lt_irrefl _ A)].
  - destruct (Hpark eq_refl) as (A & _). left. clear - A. lia.
Qed.

(* the reader's segment is sealed: it is no longer the active one, which is all the woken reader needs *)
Lemma rd_seal a p g r : rd_ok a (Some p) g r -> t_seg r = p -> (p < a)%nat ->
  rd_ok a None (mkSg (g_len g) (g_cap g) true) (wake p r).
Proof.
  intros [Hseg Hpos Hpark Hinner Honce Hw] <- Ha. rewrite wake_here.
  destruct r as [seg pos snap w ph got]. simp_rd. destruct ph; constructor; cbn; try assumption; try discriminate; auto.
  all: intros W; destruct (Hinner W) as [A _]; split; [exact A|right; exact Ha].
Qed.

(* the active segment goes; the reader is on an older one, has not seen the deleted one and is not
   in a wait cycle *)
Lemma rd_drop a g g' r : rd_ok a None g r -> (t_seg r < a)%nat -> (t_snap r <= a)%nat -> t_waiting r = 0%N ->
  g_len g' = g_len g -> rd_ok (a - 1) None g' r.
Proof.
  intros [Hseg Hpos Hpark Hinner Honce Hw] Hs Hn W0 El. constructor; rewrite ?El; try assumption; try congruence.
  - clear - Hseg Hn. lia.
  - intros P. destruct (Hpark P) as (_ & _ & _ & [D|D]); [clear - D Hs; lia|discriminate].
Qed.

Lemma others_keep_seg v s lb : lb <> TStep -> t_seg (s_rd (tstep v s lb)) = t_seg (s_rd s).
Proof.
  intros Hlb. destruct s as [segs pend r]. destruct lb; try contradiction; cbn [tstep]; simp_rd.
  - destruct (full _); simp_rd; [reflexivity|apply wake_seg].
  - destruct pend; reflexivity.
  - destruct pend; [|reflexivity]. destruct (g_sealed _); simp_rd; [reflexivity|apply wake_seg].
  - destruct pend; [reflexivity|]. destruct (_ && _); [|reflexivity]. simp_rd.
    destruct (Nat.eqb_spec (t_seg r) (last_idx segs)) as [E|N]; [symmetry; exact E|reflexivity].
  - destruct pend; [reflexivity|]. destruct (_ && _); reflexivity.
  - destruct (t_phase r); try reflexivity. destruct (_ || _); reflexivity.
Qed.

Lemma step_idle v s : t_phase (s_rd s) <> Running -> tstep v s TStep = s.
Proof. destruct s as [segs pend [seg pos snap w [] got]]; intros N; [contradiction N|..]; reflexivity. Qed.

Lemma step_eta v s : tstep v s TStep = mkT (s_segs s) (s_pending s) (s_rd (tstep v s TStep)).
Proof.
  destruct s as [segs pend [seg pos snap w ph got]]. cbn [tstep]. simp_rd. destruct ph; try reflexivity.
  destruct w as [|[[]|[]|]]; try destruct (_ <? _); try destruct (_ <? _)%nat; reflexivity.
Qed.

(* What TStep does to a running reader: with something to read in its segment it delivers; at the end of
   the segment it moves on, or goes to waitForData -- from the inner loop and after the second look only
   when its segment is the active one. *)
Lemma step_cases v s a :
  let r := s_rd s in let g := nth_sg (s_segs s) (t_seg r) in let r' := s_rd (tstep v s TStep) in
  rd_ok a (s_pending s) g r -> length (s_segs s) = S a -> t_phase r = Running ->
  t_pos r < g_len g /\ r' = mkTr (t_seg r) (t_pos r + 1) (S a) 0 Running (t_got r + 1) \/
  t_pos r = g_len g /\
  ((exists sn, (S (t_seg r) < sn <= S a)%nat /\ r' = mkTr (S (t_seg r)) 0 sn 0 Running (t_got r)) \/
   t_waiting r = 0%N /\ r' = mkTr (t_seg r) (t_pos r) (t_snap r) 1 AboutToWait (t_got r) \/
   (t_waiting r = 1 \/ t_waiting r = 2)%N /\ t_seg r = a /\ r' = mkTr (t_seg r) (t_pos r) (S a) 2 AboutToWait (t_got r)).
Proof.
  destruct s as [segs pend [seg pos snap w ph got]]. cbn zeta. simp_rd. intros [Hseg Hpos _ Hinner _ Hw] Hl ->.
  cbn [tstep]. simp_rd. rewrite Hl. set (g := nth_sg segs seg) in *. clearbody g.
  assert (Hin : w = 2%N -> pos = g_len g) by (intros W; apply (Hinner W)). clear Hinner.
  destruct (Z.ltb_spec pos (g_len g)) as [Hlt|Hge].
  - left. split; [exact Hlt|]. assert (w = 0 \/ w = 1)%N as [-> | ->] by lia; reflexivity.
  - right. split; [lia|]. assert (w = 0 \/ w = 1 \/ w = 2)%N as [-> | [-> | ->]] by lia; cbv iota.
    (* the first look goes by the snapshot, the later ones by the list as it is now *)
    1: destruct (Nat.ltb_spec (S seg) snap); [left; exists snap; split; [lia|reflexivity]|right; left; split; reflexivity].
    all: destruct (Nat.ltb_spec (S seg) (S a)); [left; exists (S a); split; [lia|reflexivity]|right; right; repeat split; [auto|lia]].
Qed.

Lemma wait_cases v s :
  let r := s_rd s in let g := nth_sg (s_segs s) (t_seg r) in
  tstep v s TWaitDec = mkT (s_segs s) (s_pending s)
  match t_phase r with
  | AboutToWait => mkTr (t_seg r) (t_pos r) (t_snap r) (t_waiting r)
                        (if (t_pos r <? g_len g) || full g || (tv_sealed v && g_sealed g) then Running else Parked) (t_got r)
  | _ => r
  end.
Proof. destruct s as [segs pend [seg pos snap w ph got]]. destruct ph; cbn; try reflexivity. destruct (_ || _); reflexivity. Qed.

Lemma tstep_inv_step s : tinv s -> tinv (tstep tcode s TStep).
Proof.
  intros H. destruct (proj1 (tinv_parts s) H) as [Hs Hr]. destruct (t_phase (s_rd s)) eqn:Ep.
  2,3: rewrite step_idle by congruence; exact H.
  apply tinv_parts. rewrite step_eta. simp_rd. split; [exact Hs|].
  pose proof (shape_length _ _ Hs) as Hl.
  destruct (step_cases tcode s _ Hr Hl Ep) as [[Hlt ->] | [Ee [(sn & Hsn & ->) | [(W & ->) | (W & E & ->)]]]]; simp_rd.
  all: pose proof (r_seg _ _ _ _ Hr) as Hseg; pose proof (r_pos _ _ _ _ Hr) as Hpos; clear H.
  - apply rd_fresh; lia.
  - apply rd_fresh; [exact Hsn|]. split; [lia|apply (h_len _ _ Hs)].
  - constructor; cbn; assumption || discriminate.
  - (* after the second look, at the end of the active segment: it was full already *)
    constructor; cbn; try assumption; try discriminate; [lia|].
    intros _. split; [exact Ee|]. destruct W as [W|W]; [|apply (r_inner _ _ _ _ Hr W)].
    destruct (r_once _ _ _ _ Hr Ep W) as [A|[A|A]]; [lia|left; exact A|lia].
Qed.

(* waitForData: the reader registers only at the end of an unsealed segment that is not full *)
Lemma tstep_inv_wait s : tinv s -> tinv (tstep tcode s TWaitDec).
Proof.
  intros H. destruct (proj1 (tinv_parts s) H) as [Hs Hr].
  apply tinv_parts. rewrite wait_cases. cbv zeta. simp_rd. split; [exact Hs|].
  destruct (t_phase (s_rd s)); try exact Hr. cbn [tcode tv_sealed andb]. simp_rd.
  pose proof (shape_sealed _ _ (t_seg (s_rd s)) Hs) as Hsl. clear H Hs.
  set (r := s_rd s) in *. set (g := nth_sg (s_segs s) (t_seg r)) in *. clearbody g.
  destruct Hr as [Hseg Hpos _ Hinner _ Hw]. specialize (Hsl ltac:(lia)).
  destruct (_ || _) eqn:Ec; constructor; cbn; try assumption; try discriminate.
  - intros _ _. apply orb_true_iff in Ec. destruct Ec as [Ec|Es]; [apply orb_true_iff in Ec; destruct Ec as [Hlt%Z.ltb_lt|Ef]|].
    + left. exact Hlt.
    + right. left. exact Ef.
    + right. right. rewrite Es in Hsl. exact Hsl.
  - intros _. apply orb_false_iff in Ec. destruct Ec as [Ec Es]. apply orb_false_iff in Ec. destruct Ec as [Hge%Z.ltb_ge Ef].
    rewrite Es in Hsl. repeat split; try assumption. lia.
Qed.

Theorem tstep_inv s lb : tinv s -> tinv (tstep tcode s lb).
Proof.
  intros H. destruct lb; [..|apply tstep_inv_step; exact H|apply tstep_inv_wait; exact H].
  all: destruct (proj1 (tinv_parts s) H) as [Hs Hr].
  all: pose proof (shape_length _ _ Hs) as Hl; pose proof (r_seg _ _ _ _ Hr) as Hseg.
  all: destruct s as [segs pend r]; cbn [tstep]; simp_rd; set (a := last_idx segs) in *.
  - (* TAppend *)
    set (g := nth_sg segs a). destruct (full g) eqn:Ef; [exact H|]. apply tinv_parts. simp_rd.
    pose proof (h_len _ _ Hs a) as Hg. pose proof (h_act _ _ Hs) as Ha. fold a g in Hg, Ha. split.
    + apply shape_set_last; [exact Hs|cbn; lia|exact Ha].
    + rewrite last_idx_set_nth, wake_seg, nth_set_nth by lia. fold a.
      destruct (Nat.eqb_spec (t_seg r) a) as [E|N]; [|rewrite wake_other by exact N; exact Hr].
      apply rd_append; [rewrite E in Hr; exact Hr|exact E|exact Ef].
  - (* TRollNew *)
    destruct pend; [exact H|]. apply tinv_parts. simp_rd. split; [apply shape_roll; exact Hs|].
    rewrite last_idx_snoc, nth_snoc, Hl. destruct (Nat.ltb_spec (t_seg r) (S a)); [|lia].
    apply (rd_frame a None); [exact Hr|lia|]. intros [E|E]; [right; rewrite E; reflexivity|discriminate].
  - (* TSeal *)
    destruct pend as [p|]; [|exact H].
    destruct (h_pend _ _ Hs p eq_refl) as [Ep ->]. fold a in Ep. apply tinv_parts. simp_rd. set (g := nth_sg segs p). split.
    + apply shape_seal; [exact Hs|apply (h_len _ _ Hs)|reflexivity].
    + rewrite last_idx_set_nth, wake_seg, nth_set_nth by lia. fold a.
      destruct (Nat.eqb_spec (t_seg r) p) as [E|N].
      * apply rd_seal; [rewrite E in Hr; exact Hr|exact E|lia].
      * rewrite wake_other by exact N. apply (rd_frame a (Some p)); [exact Hr|lia|]. intros [E|E]; [left; exact E|congruence].
  - (* TTruncCopy *)
    destruct pend; [exact H|]. set (g := nth_sg segs a).
    destruct (_ && _) eqn:Ec; [|exact H]. apply tinv_parts. simp_rd. cbn [tcode tv_unseal negb].
    split; [apply shape_set_last; [exact Hs|cbn; lia|reflexivity]|]. rewrite last_idx_set_nth, nth_set_nth by lia. fold a.
    destruct (Nat.eqb_spec (t_seg r) a) as [E|N]; simp_rd; [|destruct (Nat.eqb_spec (t_seg r) a); [contradiction|exact Hr]].
    (* the reader of the rewritten segment is created again *)
    rewrite Nat.eqb_refl, Hl. pose proof (r_pos _ _ _ _ Hr). apply rd_fresh; cbn; lia.
  - (* TTruncDrop *)
    destruct pend; [exact H|].
    destruct (_ && _) eqn:Ec; [|exact H]. apply tinv_parts. simp_rd. cbn [tcode tv_unseal negb]. rewrite andb_false_r.
    split; [apply shape_drop; [exact Hs|lia|apply (h_len _ _ Hs)|reflexivity]|].
    rewrite last_idx_drop, nth_drop by lia. fold a.
    apply (rd_drop a (nth_sg segs (t_seg r))); [exact Hr|lia..|].
    destruct (Nat.eqb_spec (t_seg r) (a - 1)) as [->|N]; reflexivity.
Qed.

Lemma tinit_inv cap : tinv (tinit cap).
Proof.
  apply tinv_parts. split; [|apply rd_fresh; cbn; lia].
  constructor; cbn; try discriminate; [lia| |reflexivity|lia].
  intros [|[|i]]; cbn; lia.
Qed.

Theorem trun_inv s sched : tinv s -> tinv (trun tcode s sched).
Proof. exact (fold_left_inv _ _ tstep_inv sched s). Qed.

(* No lost wake-up: a reader registered as a waiter has consumed the whole log, unless the seal of
   its segment -- which wakes it -- is still to come. *)
Theorem parked_reader_has_read_everything cap sched :
  let s := trun tcode (tinit cap) sched in
  t_phase (s_rd s) = Parked -> s_pending s <> Some (t_seg (s_rd s)) ->
  t_seg (s_rd s) = last_idx (s_segs s) /\ t_pos (s_rd s) = g_len (nth_sg (s_segs s) (last_idx (s_segs s))).
Proof.
  cbn zeta. intros P Np. pose proof (trun_inv (tinit cap) sched (tinit_inv cap)) as H. destruct (i_park _ H P) as (A & _ & _ & [D|D]); [|contradiction].
  split; [exact D|]. rewrite <- D. exact A.
Qed.

(* ... and the seal leaves nobody parked on the segment it seals *)
Theorem seal_wakes s i : tinv s -> s_pending s = Some i ->
  ~ (t_phase (s_rd (tstep tcode s TSeal)) = Parked /\ t_seg (s_rd (tstep tcode s TSeal)) = i).
Proof.
  intros H Hp [P E]. destruct (i_pend _ H i Hp) as [_ Es]. destruct s as [segs pend r]. cbn [tstep s_pending s_segs s_rd] in *. subst pend. rewrite Es in *.
  cbn [s_rd] in *. rewrite wake_seg in E. subst i. rewrite wake_here in P. destruct (t_phase r) eqn:Ep; [congruence..|discriminate].
Qed.

(* No message is skipped: the reader leaves a segment only for the next one, and only when it has
   consumed all of it. *)
Theorem reader_leaves_only_consumed_segments s lb : tinv s ->
  t_seg (s_rd (tstep tcode s lb)) <> t_seg (s_rd s) ->
  t_seg (s_rd (tstep tcode s lb)) = S (t_seg (s_rd s)) /\ t_pos (s_rd s) = g_len (nth_sg (s_segs s) (t_seg (s_rd s))).
Proof.
  intros H Hc. destruct (proj1 (tinv_parts s) H) as [Hs Hr].
  assert (lb = TStep) as -> by (destruct lb; try reflexivity; contradiction Hc; apply others_keep_seg; discriminate).
  destruct (t_phase (s_rd s)) eqn:Ep.
  2,3: contradiction Hc; rewrite step_idle by congruence; reflexivity.
  pose proof (shape_length _ _ Hs) as Hl.
  destruct (step_cases tcode s _ Hr Hl Ep) as [[_ E] | [Ee [(sn & _ & E) | [(_ & E) | (_ & _ & E)]]]]; rewrite E in *; simp_rd;
    [contradiction Hc; reflexivity|split; [reflexivity|exact Ee]|contradiction Hc; reflexivity..].
Qed.

(* what the refuting schedules of Properties/C01.v show of a state *)
Definition tshow (s : tst) := (map (fun g => (g_len g, g_sealed g)) (s_segs s), s_pending s,
                               (t_seg (s_rd s), t_pos (s_rd s), t_phase (s_rd s), t_got (s_rd s))).

(* the current tree on the two schedules on which the pinned code loses a wake-up (Properties/C01.v) *)
Lemma code_delivers :
  t_got (s_rd (trun tcode (tinit 10) [TAppend; TStep; TStep; TRollNew; TSeal; TAppend; TWaitDec; TStep; TStep; TStep])) = 2 /\
  t_got (s_rd (trun tcode (tinit 10) [TAppend; TAppend; TTruncCopy 1; TStep; TStep; TWaitDec; TRollNew; TSeal; TAppend; TStep; TStep; TStep])) = 2.
Proof. vm_compute. split; reflexivity. Qed.

Definition rstep (s : tst) : tst :=
  tstep tcode s (match t_phase (s_rd s) with AboutToWait => TWaitDec | _ => TStep end).

Fixpoint riter (n : nat) (s : tst) : tst := match n with O => s | S k => riter k (rstep s) end.

Definition has_data (s : tst) : Prop :=
  t_pos (s_rd s) < g_len (nth_sg (s_segs s) (t_seg (s_rd s))) \/
  exists j, (t_seg (s_rd s) < j < length (s_segs s))%nat /\ 0 < g_len (nth_sg (s_segs s) j).

Lemma rstep_segs s : s_segs (rstep s) = s_segs s /\ s_pending (rstep s) = s_pending s.
Proof. unfold rstep. destruct (t_phase (s_rd s)); [rewrite step_eta|rewrite wait_cases|rewrite step_eta]; split; reflexivity. Qed.

(* How many of its own steps the reader is from delivering, at most. At the end of a consumed segment
   whose successor its snapshot lacks it goes AboutToWait, Running (waitForData returns at once on a
   sealed segment) and on this second look moves on by the list as it is now: 3 steps, and 4 are allowed
   for every segment still ahead. At a segment that has data it takes at most 2: waitForData returns,
   the read delivers. Having waited already (t_waiting > 0) saves the first two steps. *)
Definition rank (s : tst) : nat :=
  let r := s_rd s in
  4 * (last_idx (s_segs s) - t_seg r) +
  (if t_pos r <? g_len (nth_sg (s_segs s) (t_seg r)) then 0 else match t_waiting r with 0%N => 2 | _ => 0 end) +
  match t_phase r with Running => 1 | AboutToWait => 2 | Parked => 0 end.

Lemma rank_bounds s :
  (4 * (last_idx (s_segs s) - t_seg (s_rd s)) <= rank s <= 4 * (last_idx (s_segs s) - t_seg (s_rd s)) + 4)%nat.
Proof.
  unfold rank. cbv zeta. generalize (4 * (last_idx (s_segs s) - t_seg (s_rd s)))%nat. intros m.
  destruct (_ <? _), (t_waiting (s_rd s)), (t_phase (s_rd s)); lia.
Qed.

Lemma move_progress s sn : g_len (nth_sg (s_segs s) (t_seg (s_rd s))) <= t_pos (s_rd s) -> has_data s ->
  let s' := mkT (s_segs s) (s_pending s) (mkTr (S (t_seg (s_rd s))) 0 sn 0 Running (t_got (s_rd s))) in
  t_got (s_rd s') = t_got (s_rd s) /\ has_data s' /\ (rank s' < rank s)%nat.
Proof.
  intros Hge [Hc|(j & Hj & Hl)]; [lia|]. split; [reflexivity|]. split.
  - destruct (Nat.eq_dec j (S (t_seg (s_rd s)))) as [->|N]; [left; exact Hl|right; exists j; split; [simp_rd; lia|exact Hl]].
  - pose proof (rank_bounds s) as [B _]. unfold rank at 1. unfold last_idx in *. simp_rd. destruct (0 <? _); clear - B Hj; lia.
Qed.

Lemma rstep_progress s : tinv s -> s_pending s = None -> has_data s ->
  t_got (s_rd (rstep s)) = t_got (s_rd s) + 1 \/
  t_got (s_rd (rstep s)) = t_got (s_rd s) /\ has_data (rstep s) /\ (rank (rstep s) < rank s)%nat.
Proof.
  intros H Hpn Hdata. destruct (proj1 (tinv_parts s) H) as [Hs Hr]. set (a := last_idx (s_segs s)) in *.
  pose proof (shape_length _ _ Hs) as Hl.
  (* a consumed segment with data behind it is sealed and not the last *)
  assert (Hsealed : g_len (nth_sg (s_segs s) (t_seg (s_rd s))) <= t_pos (s_rd s) ->
            g_sealed (nth_sg (s_segs s) (t_seg (s_rd s))) = true /\ (t_seg (s_rd s) < a)%nat).
  { intros Hge. destruct Hdata as [Hc|(j & Hj & _)]; [lia|].
    destruct (h_old _ _ Hs (t_seg (s_rd s))) as [S1|S1]; [fold a; lia| |congruence]. split; [exact S1|lia]. }
  unfold rstep. destruct (t_phase (s_rd s)) eqn:Ep.
  - rewrite step_eta. destruct (step_cases tcode s a Hr Hl Ep) as [[Hlt ->] | [Ee [(sn & Hsn & ->) | [(W & ->) | (W & E & ->)]]]].
    + left. reflexivity.
    + right. apply move_progress; [lia|exact Hdata].
    + right. split; [reflexivity|]. split; [exact Hdata|]. unfold rank. simp_rd. rewrite W, Ep.
      destruct (Z.ltb_spec (t_pos (s_rd s)) (g_len (nth_sg (s_segs s) (t_seg (s_rd s))))); lia.
    + destruct Hsealed; lia.
  - right. rewrite wait_cases, Ep. cbv zeta. cbn [tcode tv_sealed andb].
    set (g := nth_sg (s_segs s) (t_seg (s_rd s))) in *.
    assert (E : (t_pos (s_rd s) <? g_len g) || full g || g_sealed g = true).
    { destruct (Z.ltb_spec (t_pos (s_rd s)) (g_len g)) as [Hlt|Hge]; [reflexivity|]. destruct (Hsealed Hge) as [-> _]. apply orb_true_r. }
    rewrite E. split; [reflexivity|]. split; [exact Hdata|]. unfold rank. simp_rd. fold g. rewrite Ep. lia.
  - destruct (r_park _ _ _ _ Hr Ep) as (Ee & _ & Es & _). destruct Hsealed; [lia|congruence].
Qed.

Lemma riter_progress n : forall s, tinv s -> s_pending s = None -> has_data s -> (rank s < n)%nat ->
  exists k, (k <= n)%nat /\ t_got (s_rd (riter k s)) = t_got (s_rd s) + 1.
Proof.
  induction n as [|n IH]; intros s H Hp Hd Hr; [lia|].
  destruct (rstep_progress s H Hp Hd) as [Hg|(Hg & Hd' & Hr')].
  - exists 1%nat. split; [lia|exact Hg].
  - destruct (IH (rstep s)) as (k & Hk & Hgk); [apply tstep_inv; exact H|rewrite (proj2 (rstep_segs s)); exact Hp|exact Hd'|lia|].
    exists (S k). split; [lia|]. cbn [riter]. rewrite Hgk, Hg. reflexivity.
Qed.

(* Progress: with the writers quiet (and no seal outstanding) a reader behind the end of the log
   delivers its next message within a bounded number of its own steps: it neither parks nor spins. *)
Theorem reader_progress cap sched :
  let s := trun tcode (tinit cap) sched in
  s_pending s = None -> has_data s ->
  exists n, (n <= 4 * length (s_segs s) + 2)%nat /\ t_got (s_rd (riter n s)) = t_got (s_rd s) + 1.
Proof.
  cbn zeta. intros Hp Hd. pose proof (trun_inv (tinit cap) sched (tinit_inv cap)) as H.
  apply riter_progress; try assumption.
  pose proof (rank_bounds (trun tcode (tinit cap) sched)). pose proof (i_ne _ H). unfold last_idx in *. lia.
Qed.

(* The only place where the reader can go round without delivering or parking is the end of a full
   active segment that has not been rolled yet (waitForData returns at once there): everything the log
   holds has been delivered. *)
Theorem spinning_reader_has_read_everything cap sched :
  let s := trun tcode (tinit cap) sched in
  t_waiting (s_rd s) = 2%N -> t_seg (s_rd s) = last_idx (s_segs s) ->
  full (nth_sg (s_segs s) (last_idx (s_segs s))) = true /\
  t_pos (s_rd s) = g_len (nth_sg (s_segs s) (last_idx (s_segs s))).
Proof.
  cbn zeta. intros Hw Hs. pose proof (trun_inv (tinit cap) sched (tinit_inv cap)) as H.
  destruct (i_inner _ H Hw) as [Ep [Hf|Hl]]; rewrite Hs in *; [split; assumption|lia].
Qed.
