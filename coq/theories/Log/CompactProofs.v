(* Compaction and the reverse reader (Log/Compact.v).  Compaction leaves the newest segment
   alone and filters the records of the older ones, so the content of the result is a filter
   of the old content ([keep]); a filter of a well-formed chain of segments is a well-formed
   chain that ends no later; [latest_for] is the maximum of 0 and the offsets the key scan
   counts for the key.  The reverse reader is a filter of the content too
   (read_reverse_refines). *)
From LB Require Import Base.Prelude Log.Model Log.Retention Log.Compact Log.Proofs Log.Refine.
From Coq Require Import ZifyBool.
Open Scope Z_scope.

Section Proofs.
  Variable key_of : bytes -> option bytes.
  Notation retained := (retained key_of).
  Notation compact_segs := (compact_segs key_of).
  Notation latest_for := (latest_for key_of).
  Notation has_key := (has_key key_of).
  Notation kstr := (kstr key_of).

  Definition clean_seg (cf : bool) (hw : Z) (all : list rec) (s : seg) : seg :=
    mkSeg (s_base s) (filter (retained cf hw all) (s_recs s)).
  Definition nonempty (s : seg) : bool := match s_recs s with [] => false | _ => true end.

  Lemma compact_segs_snoc cf hw older last :
    compact_segs cf hw (older ++ [last]) =
    filter nonempty (map (clean_seg cf hw (flat (older ++ [last]))) older) ++ [last].
  Proof.
    unfold compact_segs. rewrite rev_app_distr. cbn [rev app].
    destruct older as [|x r _] using rev_ind; [reflexivity|].
    rewrite rev_app_distr. cbn [rev app]. rewrite rev_involutive. reflexivity.
  Qed.

  Lemma flat_filter_nonempty segs : flat (filter nonempty segs) = flat segs.
  Proof.
    induction segs as [|s t IH]; [reflexivity|]. change (flat (s :: t)) with (s_recs s ++ flat t).
    cbn [filter]. unfold nonempty at 1. destruct (s_recs s) eqn:E; [exact IH|].
    change (flat (s :: filter nonempty t)) with (s_recs s ++ flat (filter nonempty t)). rewrite IH, E. reflexivity.
  Qed.

  Lemma flat_map_clean cf hw all segs :
    flat (map (clean_seg cf hw all) segs) = filter (retained cf hw all) (flat segs).
  Proof. unfold flat. rewrite <- concat_filter_map, !map_map. reflexivity. Qed.

  (* what is kept: retained by the key rule, or in the newest segment *)
  Definition keep (cf : bool) (hw : Z) (all : list rec) (last_base : Z) (r : rec) : bool :=
    retained cf hw all r || (last_base <=? r_off r).

  Lemma keep_true cf hw all b r : keep cf hw all b r = true <->
    has_key r = false \/ r_off r = latest_for cf hw all (kstr r) \/ hw <= r_off r \/ b <= r_off r.
  Proof. unfold keep, Compact.retained. lia. Qed.

  Theorem compact_content cf hw lo older last : 0 <= lo -> segs_wf lo (older ++ [last]) ->
    flat (compact_segs cf hw (older ++ [last])) =
    filter (keep cf hw (flat (older ++ [last])) (s_base last)) (flat (older ++ [last])).
  Proof.
    intros Hlo Hw. rewrite compact_segs_snoc.
    set (all := flat (older ++ [last])).
    rewrite flat_app, flat_filter_nonempty, flat_map_clean.
    unfold all at 3. rewrite flat_app, filter_app.
    apply segs_wf_app in Hw. destruct Hw as [Hold (Hb & Hs & _)].
    f_equal.
    - (* everything in the older segments is below the base of the newest *)
      apply filter_ext_in. intros r Hr. unfold keep.
      destruct (segs_wf_bounds lo older Hlo Hold) as (_ & _ & Hlt). rewrite Forall_forall in Hlt. specialize (Hlt r Hr).
      destruct (Z.leb_spec (s_base last) (r_off r)); [lia|]. rewrite orb_false_r. reflexivity.
    - rewrite flat_single. symmetry. apply filter_true.
      eapply Forall_impl; [|exact (sorted_ge _ _ Hs)]. cbn beta. intros r Hr. apply keep_true. lia.
  Qed.

  Lemma next_after_filter_le f lo rs : 0 <= lo -> sorted_from lo rs ->
    next_after lo (filter f rs) <= next_after lo rs.
  Proof.
    intros Hlo Hs. apply next_after_le; [exact (next_after_ge lo rs Hlo Hs)|].
    intros x Hx. apply filter_In in Hx. exact (proj2 (proj1 (Forall_forall _ _) (sorted_all_lt lo rs Hlo Hs) x (proj1 Hx))).
  Qed.

  Lemma segs_wf_tail lo s t : 0 <= lo -> segs_wf lo (s :: t) -> segs_wf lo t.
  Proof.
    intros Hlo (H1 & H2 & H3). pose proof (s_next_ge s ltac:(lia) H2). eapply segs_wf_weaken; [|exact H3]. lia.
  Qed.

  (* stated for any entry point lo' <= lo: when a segment shrinks or vanishes, the rest of the
     chain is entered from further down *)
  Lemma segs_wf_clean cf hw all lo' lo segs : 0 <= lo' <= lo -> segs_wf lo segs ->
    segs_wf lo' (filter nonempty (map (clean_seg cf hw all) segs)) /\
    chain_next lo' (filter nonempty (map (clean_seg cf hw all) segs)) <= chain_next lo segs.
  Proof.
    revert lo' lo. induction segs as [|s t IH]; intros lo' lo Hlo Hw; [split; [exact I|cbn; lia]|].
    destruct Hw as (H1 & H2 & H3). cbn [map filter chain_next].
    pose proof (s_next_ge s ltac:(lia) H2) as Hn.
    set (s' := clean_seg cf hw all s).
    assert (Hcs : sorted_from (s_base s) (s_recs s')) by (apply filter_sorted; exact H2).
    assert (Hcn : s_base s <= s_next s' <= s_next s).
    { split; [apply (s_next_ge s'); [cbn; lia|exact Hcs]|]. exact (next_after_filter_le _ (s_base s) (s_recs s) ltac:(lia) H2). }
    destruct (nonempty s').
    - cbn [segs_wf chain_next]. destruct (IH (s_next s') (s_next s) ltac:(lia) H3) as [IH1 IH2].
      split; [split; [cbn; lia|split; [exact Hcs|exact IH1]]|exact IH2].
    - apply IH; [lia|exact H3].
  Qed.

  (* the result is a well-formed chain again, so every reader theorem of C01 applies to it *)
  Theorem compact_wf cf hw lo older last : 0 <= lo -> segs_wf lo (older ++ [last]) ->
    segs_wf lo (compact_segs cf hw (older ++ [last])).
  Proof.
    intros Hlo Hw. rewrite compact_segs_snoc.
    apply segs_wf_app in Hw. destruct Hw as [Hold (Hb & Hs & _)].
    destruct (segs_wf_clean cf hw (flat (older ++ [last])) lo lo older ltac:(lia) Hold) as [H1 H2].
    apply segs_wf_app. split; [exact H1|]. split; [lia|]. split; [exact Hs|exact I].
  Qed.

  (* the records the key scan counts for key string k *)
  Definition counts (cf : bool) (hw : Z) (k : bytes) (r : rec) : bool :=
    (r_off r <=? hw) && (cf || has_key r) && bytes_eqb (kstr r) k.

  Lemma counts_true cf hw k r : counts cf hw k r = true <->
    r_off r <= hw /\ (cf = true \/ has_key r = true) /\ kstr r = k.
  Proof.
    unfold counts. rewrite <- bytes_eqb_eq. lia.
  Qed.

  Lemma latest_for_snoc cf hw all r k :
    latest_for cf hw (all ++ [r]) k =
    if counts cf hw k r then Z.max (latest_for cf hw all k) (r_off r) else latest_for cf hw all k.
  Proof. unfold Compact.latest_for. rewrite fold_left_app. reflexivity. Qed.

  Lemma latest_for_bounds cf hw all k :
    (forall r, In r all -> counts cf hw k r = true -> r_off r <= latest_for cf hw all k) /\
    (forall m, 0 <= m -> (forall r, In r all -> counts cf hw k r = true -> r_off r <= m) -> latest_for cf hw all k <= m).
  Proof.
    induction all as [|x t (IHu & IHl)] using rev_ind.
    - cbn. split; [intros r []|intros; lia].
    - rewrite latest_for_snoc.
      assert (Hin : forall r, In r t -> In r (t ++ [x])) by (intros; apply in_or_app; left; assumption).
      assert (Hx : In x (t ++ [x])) by (apply in_or_app; right; left; reflexivity).
      destruct (counts cf hw k x) eqn:E.
      + split.
        * intros r Hr Hc. apply in_app_or in Hr. destruct Hr as [Hr|[<-|[]]]; [|apply Z.le_max_r].
          exact (Z.le_trans _ _ _ (IHu r Hr Hc) (Z.le_max_l _ _)).
        * intros m Hm H. apply Z.max_lub; [exact (IHl m Hm (fun r Hr => H r (Hin r Hr)))|exact (H x Hx E)].
      + split.
        * intros r Hr Hc. apply in_app_or in Hr. destruct Hr as [Hr|[<-|[]]]; [exact (IHu r Hr Hc)|congruence].
        * intros m Hm H. exact (IHl m Hm (fun r Hr => H r (Hin r Hr))).
  Qed.

  Lemma latest_for_is_max hw all r : In r all -> has_key r = true -> r_off r <= hw -> 0 <= r_off r ->
    (forall r', In r' all -> has_key r' = true -> kstr r' = kstr r -> r_off r' <= hw -> r_off r' <= r_off r) ->
    latest_for false hw all (kstr r) = r_off r.
  Proof.
    intros Hin Hk Hhw H0 Hmax. destruct (latest_for_bounds false hw all (kstr r)) as (Hu & Hl).
    apply Z.le_antisymm.
    - apply Hl; [exact H0|]. intros x Hx Hc. apply counts_true in Hc.
      destruct Hc as (E1 & [E2|E2] & E3); [discriminate|]. apply Hmax; assumption.
    - apply Hu; [exact Hin|]. apply counts_true. auto.
  Qed.

  Theorem survivors cf hw lo older last r : 0 <= lo -> older <> [] -> segs_wf lo (older ++ [last]) ->
    In r (flat (older ++ [last])) ->
    (has_key r = false \/ hw <= r_off r \/ In r (s_recs last) \/
     (cf = false /\ r_off r = latest_for false hw (flat (older ++ [last])) (kstr r))) ->
    In r (flat (compact_segs cf hw (older ++ [last]))).
  Proof.
    intros Hlo _ Hw Hin Hwhy. rewrite (compact_content cf hw lo) by assumption.
    apply filter_In. split; [exact Hin|]. apply keep_true.
    destruct Hwhy as [H|[H|[H|[-> H]]]]; [left; exact H|right; right; left; exact H| |right; left; exact H].
    right. right. right.
    apply segs_wf_app in Hw. destruct Hw as [_ (_ & Hs & _)].
    exact (proj1 (Forall_forall _ _) (sorted_ge _ _ Hs) r H).
  Qed.

  Theorem survivors_unchanged cf hw lo older last : 0 <= lo -> older <> [] -> segs_wf lo (older ++ [last]) ->
    exists f, flat (compact_segs cf hw (older ++ [last])) = filter f (flat (older ++ [last])).
  Proof. intros Hlo _ Hw. eexists. exact (compact_content cf hw lo older last Hlo Hw). Qed.
End Proofs.

Definition le_off (o : Z) (r : rec) : bool := r_off r <=? o.

Lemma filter_le_all rs o : Forall (fun r => r_off r < o) rs -> filter (le_off o) rs = rs.
Proof. intros H. apply filter_true. eapply Forall_impl; [|exact H]. unfold le_off. cbn beta. intros; lia. Qed.

Lemma filter_le_none lo rs o : sorted_from lo rs -> o < lo -> filter (le_off o) rs = [].
Proof.
  intros Hs Ho. apply filter_false. eapply Forall_impl; [|exact (sorted_ge lo rs Hs)].
  unfold le_off. cbn beta. intros; lia.
Qed.

(* the reverse scanner that searches its start entry: of the segment that holds the start offset
   it takes the records at or below it, of the segments in front everything *)
Theorem read_reverse_refines l start stop : wf l ->
  match read_reverse true l start true stop with
  | Some rs => rs = take_while_ge stop (rev (filter (le_off start) (all_recs l)))
  | None => newest l < start
  end.
Proof.
  intros Hw. pose proof (newest_chain l Hw) as Hn. destruct Hw as [Hne Hs].
  pose proof (find_segment_spec 0 (l_segs l) start ltac:(lia) Hs) as F.
  unfold read_reverse, all_recs. fold (flat (l_segs l)).
  destruct (find_segment (l_segs l) start) as [[i s]|].
  - destruct F as (pre & post & E & <- & Hpre & H0 & Hss & Hlt & _ & Hpost).
    rewrite E, firstn_app_exact. fold (flat pre). f_equal.
    rewrite flat_mid, !filter_app, (filter_le_all (flat pre)), (filter_le_none (s_next s) (flat post)) by assumption.
    rewrite app_nil_r, rev_app_distr. reflexivity.
  - destruct F as [_ F]. specialize (F Hne). lia.
Qed.
