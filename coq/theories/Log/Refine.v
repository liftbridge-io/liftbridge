(* Each operation of the segmented log refines the abstract log (a sorted list of records):
   content after the operation, offsets returned, well-formedness preserved, readers. *)
From LB Require Import Base.Prelude Log.Model Log.Proofs.
Open Scope Z_scope.

Lemma upd_last_snoc {A} (f : A -> A) l a : upd_last f (l ++ [a]) = l ++ [f a].
Proof.
  induction l as [|x t IH]; [reflexivity|].
  destruct t as [|y t']; [reflexivity|].
  change (upd_last f ((x :: y :: t') ++ [a])) with (x :: upd_last f ((y :: t') ++ [a])).
  rewrite IH. reflexivity.
Qed.

Lemma number_offs n ms : map r_off (number n ms) = zseq n (length ms).
Proof. revert n. induction ms as [|m t IH]; intros n; [reflexivity|]. cbn. f_equal. apply IH. Qed.

Lemma number_sorted n ms : sorted_from n (number n ms).
Proof. revert n. induction ms as [|m t IH]; intros n; cbn; [exact I|]. split; [lia|apply IH]. Qed.

Lemma next_after_number n ms : 0 <= n -> next_after n (number n ms) = n + Z.of_nat (length ms).
Proof.
  revert n. induction ms as [|m t IH]; intros n Hn; cbn [number length]; [rewrite next_after_nil; lia|].
  rewrite next_after_cons by (assumption || apply Z.le_refl || apply number_sorted).
  cbn [r_off]. rewrite IH by lia. lia.
Qed.

Lemma check_split_props maxb l : wf l ->
  wf (check_split maxb l) /\ flat (l_segs (check_split maxb l)) = flat (l_segs l) /\
  s_next (active (check_split maxb l)) = newest l + 1 /\
  l_hw (check_split maxb l) = l_hw l.
Proof.
  intros Hw. unfold check_split. destruct (maxb <=? s_pos (active l)).
  - (* the new empty segment starts where the chain ends *)
    destruct Hw as [Hne Hs]. pose proof (chain_next_last 0 _ Hne) as Hc. fold (active l) in Hc.
    unfold newest. set (a := active l) in *. unfold wf, active. cbn [l_segs l_hw].
    rewrite last_last, flat_app, flat_single.
    split; [split; [destruct (l_segs l); discriminate|]|].
    + apply segs_wf_snoc. rewrite Hc. split; [exact Hs|]. split; [apply Z.le_refl|exact I].
    + split; [apply app_nil_r|]. split; [cbn; lia|]. auto.
  - split; [exact Hw|]. split; [reflexivity|]. split; [unfold newest; lia|]. auto.
Qed.

Lemma write_props l rs : wf l -> sorted_from (s_next (active l)) rs ->
  wf (write l rs) /\ flat (l_segs (write l rs)) = flat (l_segs l) ++ rs /\
  s_next (active (write l rs)) = next_after (s_next (active l)) rs /\
  l_hw (write l rs) = l_hw l.
Proof.
  intros Hw Hrs. destruct (wf_active l Hw) as (pre & E & Hp & Hb & Ha). set (a := active l) in *.
  assert (Ha' : sorted_from (s_base a) (s_recs a ++ rs)) by (apply sorted_app; [lia|]; split; assumption).
  unfold write, active. cbn [l_segs l_hw]. rewrite E, upd_last_snoc, last_last, !flat_app, !flat_single.
  split; [split; [destruct pre; discriminate|]|].
  - apply segs_wf_snoc. cbn [s_base s_recs]. split; [exact Hp|]. split; [apply Hb|exact Ha'].
  - split; [exact (app_assoc _ _ _)|]. split; [apply (next_after_app (s_base a)); [lia|exact Ha']|]. auto.
Qed.

(* roll if due, then write: what every successful append does *)
Lemma roll_write maxb l rs : wf l -> sorted_from (newest l + 1) rs ->
  let l' := write (check_split maxb l) rs in
  wf l' /\ flat (l_segs l') = flat (l_segs l) ++ rs /\ newest l' + 1 = next_after (newest l + 1) rs /\
  l_hw l' = l_hw l.
Proof.
  intros Hw Hrs l'. destruct (check_split_props maxb l Hw) as (Hw1 & Hc & Hn & Hh).
  rewrite <- Hn in Hrs. destruct (write_props _ rs Hw1 Hrs) as (Hw2 & Hc2 & Hn2 & Hh2).
  subst l'. split; [exact Hw2|]. split; [rewrite Hc2, Hc; reflexivity|].
  split; [unfold newest at 1; rewrite Hn2, Hn; apply Z.sub_add|congruence].
Qed.

(* Append with the offset it hands out written as the log end, not as the active segment's. *)
Lemma append_spec maxb cc l ms : wf l ->
  append maxb cc l ms =
  if l_ro l then Err else
  match ms with
  | [] => Panic
  | _ => if cc && (1 <? Z.of_nat (length ms)) then Panic
         else if cc && negb (occ_ok (newest l + 1) ms) then Err
         else Ok (write (check_split maxb l) (number (newest l + 1) ms), zseq (newest l + 1) (length ms))
  end.
Proof.
  intros Hw. destruct (check_split_props maxb l Hw) as (_ & _ & Hn & _).
  unfold append. rewrite Hn, number_offs. reflexivity.
Qed.

Theorem append_ok maxb l ms l' offs :
  wf l -> append maxb false l ms = Ok (l', offs) ->
  wf l' /\ all_recs l' = all_recs l ++ number (newest l + 1) ms /\
  offs = zseq (newest l + 1) (length ms) /\ l_hw l' = l_hw l /\
  newest l' = newest l + Z.of_nat (length ms).
Proof.
  intros Hw H.
  assert (E : l' = write (check_split maxb l) (number (newest l + 1) ms) /\ offs = zseq (newest l + 1) (length ms)).
  { rewrite (append_spec maxb false l ms Hw) in H. destruct (l_ro l); [discriminate|].
    destruct ms; [discriminate|]. injection H as <- <-. split; reflexivity. }
  destruct E as [-> ->].
  destruct (roll_write maxb l (number (newest l + 1) ms) Hw (number_sorted _ _)) as (H1 & H2 & H3 & H4).
  rewrite next_after_number in H3 by (pose proof (wf_newest_ge l Hw); lia).
  split; [exact H1|]. split; [exact H2|]. split; [reflexivity|]. split; [exact H4|lia].
Qed.

(* optimistic concurrency control: one message per batch *)
Theorem append_occ maxb l m :
  wf l -> l_ro l = false ->
  (m_exp m = -1 \/ m_exp m = newest l + 1 ->
     exists l', append maxb true l [m] = Ok (l', [newest l + 1]) /\ wf l' /\
                all_recs l' = all_recs l ++ [mkRec (newest l + 1) (m_ts m) (m_ep m) (m_body m)]) /\
  (m_exp m <> -1 -> m_exp m <> newest l + 1 ->
     append maxb true l [m] = Err /\ all_recs (append_log maxb true l [m]) = all_recs l /\
     wf (append_log maxb true l [m]) /\ newest (append_log maxb true l [m]) = newest l).
Proof.
  intros Hw Hro. unfold append_log. rewrite (append_spec maxb true l [m] Hw), Hro.
  cbn [length Z.of_nat Pos.of_succ_nat andb occ_ok number zseq]. change (1 <? 1) with false. rewrite andb_true_r.
  destruct ((m_exp m =? -1) || (m_exp m =? newest l + 1)) eqn:E; cbn [negb].
  - split; [intros _|clear - E; intros; lia]. eexists. split; [reflexivity|].
    destruct (roll_write maxb l [mkRec (newest l + 1) (m_ts m) (m_ep m) (m_body m)] Hw) as (H1 & H2 & _).
    { split; [apply Z.le_refl|exact I]. }
    split; assumption.
  - (* refused after the roll *)
    split; [clear - E; intros; lia|intros _ _]. destruct (check_split_props maxb l Hw) as (Hw1 & Hc & Hn & _).
    split; [reflexivity|]. split; [exact Hc|]. split; [exact Hw1|]. unfold newest at 1. rewrite Hn. apply Z.add_simpl_r.
Qed.

Theorem append_set_refines maxb l rs l' offs :
  wf l -> sorted_from (newest l + 1) rs -> append_set maxb l rs = Ok (l', offs) ->
  wf l' /\ all_recs l' = all_recs l ++ rs /\ offs = map r_off rs /\ l_hw l' = l_hw l.
Proof.
  intros Hw Hs H. unfold append_set in H. destruct rs as [|r t]; [discriminate|]. injection H as <- <-.
  destruct (roll_write maxb l (r :: t) Hw Hs) as (H1 & H2 & _ & H4). auto.
Qed.

Lemma trunc_segs_props lo first segs o : 0 <= lo -> segs_wf lo segs ->
  segs_wf lo (trunc_segs first segs o) /\
  flat (trunc_segs first segs o) = filter (lt_off o) (flat segs) /\
  (first = true -> segs <> [] -> trunc_segs first segs o <> []).
Proof.
  revert lo first. induction segs as [|s t IH]; intros lo first Hlo Hw; [repeat split; auto|].
  destruct Hw as (H1 & H2 & H3). cbn [trunc_segs]. rewrite (flat_cons s t), filter_app.
  pose proof (s_next_ge s ltac:(lia) H2) as Hn.
  destruct (Z.ltb_spec o (s_next s)) as [Hlt|Hge].
  - (* s is the segment found: of the later ones nothing is below o *)
    destruct (segs_wf_bounds (s_next s) t ltac:(lia) H3) as (_ & Hst & _).
    rewrite (filter_lt_none (s_next s) (flat t)), app_nil_r by (assumption || lia).
    destruct ((s_base s =? o) && negb first) eqn:Ecase.
    + apply andb_prop in Ecase. destruct Ecase as [Eb Ef]. apply Z.eqb_eq in Eb.
      split; [exact I|]. split; [|intros ->; discriminate Ef].
      symmetry. apply (filter_lt_none (s_base s)); [assumption|rewrite Eb; apply Z.le_refl].
    + split; [split; [exact H1|split; [apply keep_below_sorted; assumption|exact I]]|].
      split; [|discriminate]. rewrite flat_single. apply (keep_below_filter (s_base s)). assumption.
  - destruct (IH (s_next s) false ltac:(lia) H3) as (IH1 & IH2 & _).
    split; [cbn [segs_wf]; auto|]. split; [|discriminate].
    rewrite flat_cons, IH2. f_equal. symmetry. apply filter_lt_all.
    eapply Forall_impl; [|apply seg_all_lt_next; [lia|exact H2]]. cbn beta. clear - Hge. intros; lia.
Qed.

Theorem truncate_refines l o : wf l ->
  wf (truncate l o) /\ all_recs (truncate l o) = filter (lt_off o) (all_recs l) /\ l_hw (truncate l o) = l_hw l.
Proof.
  intros Hw. pose proof Hw as [Hne Hs]. unfold truncate.
  pose proof (find_segment_spec 0 (l_segs l) o ltac:(lia) Hs) as F.
  destruct (find_segment (l_segs l) o) as [[i s]|].
  - destruct (trunc_segs_props 0 true (l_segs l) o ltac:(lia) Hs) as (H1 & H2 & H3).
    (* wf and all_recs look at l_segs only, here trunc_segs *)
    split; [split; [cbn; auto|cbn; assumption]|]. split; [exact H2|reflexivity].
  - split; [exact Hw|]. split; [|reflexivity]. symmetry. apply filter_lt_all, F.
Qed.

Theorem reopen_refines l : wf l -> wf (reopen l) /\ all_recs (reopen l) = all_recs l /\ l_hw (reopen l) = l_hw l.
Proof. (* reopen touches the epoch cache and the read-only flag; wf and all_recs look at l_segs only *)
  intros Hw. split; [exact Hw|]. split; reflexivity.
Qed.

Theorem set_hw_refines l h : wf l ->
  wf (set_hw l h) /\ all_recs (set_hw l h) = all_recs l /\ l_hw l <= l_hw (set_hw l h) /\
  l_hw (set_hw l h) = Z.max (l_hw l) h.
Proof.
  intros Hw. unfold set_hw. destruct (Z.ltb_spec (l_hw l) h); cbn [l_hw];
    (split; [exact Hw|]; split; [reflexivity|]; lia).
Qed.

Theorem read_uncommitted_refines l o : wf l ->
  fst (read_uncommitted l o) = filter (ge_off o) (all_recs l) /\
  (snd (read_uncommitted l o) = EndNotFound <-> newest l < o).
Proof.
  intros Hw. pose proof (newest_chain l Hw) as Hn. destruct Hw as [Hne Hs].
  pose proof (find_segment_spec 0 (l_segs l) o ltac:(lia) Hs) as F.
  unfold read_uncommitted, all_recs. fold (flat (l_segs l)).
  destruct (find_segment (l_segs l) o) as [[i s]|]; cbn [fst snd].
  - destruct F as (pre & post & E & <- & Hpre & H0 & Hss & Hlt & Hle & Hpost).
    split; [|split; [discriminate|clear - Hn Hlt Hle; lia]].
    (* below o: all of pre and the part of s that from_entry skips; post is whole *)
    rewrite E. replace (S (length pre)) with (length (pre ++ [s])) by (rewrite app_length; apply Nat.add_1_r).
    change (pre ++ s :: post) with (pre ++ [s] ++ post). rewrite app_assoc, skipn_app_exact. fold (flat post).
    rewrite !flat_app, flat_single, !filter_app, (filter_ge_none (flat pre)), (filter_ge_all (s_next s) (flat post)) by (assumption || lia).
    cbn [app]. f_equal. destruct (Z.leb_spec (s_base s) o).
    + apply (from_entry_filter (s_base s)). assumption.
    + symmetry. apply (filter_ge_all (s_base s)); [assumption|lia].
  - destruct F as [F1 F2]. specialize (F2 Hne). split; [symmetry; apply filter_ge_none; exact F1|]. split; [lia|reflexivity].
Qed.

Inductive hop :=
| HAppend (ms : list msg)
| HAppendSet (rs : list rec)
| HTruncate (o : Z)
| HReopen
| HSetHW (h : Z).

Definition hstep (maxb : Z) (l : log) (o : hop) : log :=
  match o with
  | HAppend ms => append_log maxb false l ms
  | HAppendSet rs => match append_set maxb l rs with Ok (l', _) => l' | _ => l end
  | HTruncate t => truncate l t
  | HReopen => reopen l
  | HSetHW h => set_hw l h
  end.

(* the abstract log: what must be readable after the operation *)
Definition spec_step (l : log) (a : list rec) (o : hop) : list rec :=
  match o with
  | HAppend ms => if l_ro l then a else a ++ number (newest l + 1) ms
  | HAppendSet rs => a ++ rs
  | HTruncate t => filter (lt_off t) a
  | HReopen => a
  | HSetHW _ => a
  end.

(* operations the callers can issue: message sets that continue the log (the leader's reader
   produces exactly these) *)
Definition hop_valid (l : log) (o : hop) : Prop :=
  match o with
  | HAppendSet rs => sorted_from (newest l + 1) rs
  | _ => True
  end.

Theorem hstep_refines maxb l o : wf l -> hop_valid l o ->
  wf (hstep maxb l o) /\ all_recs (hstep maxb l o) = spec_step l (all_recs l) o /\
  l_hw l <= l_hw (hstep maxb l o).
Proof.
  intros Hw Hv.
  assert (Hid : wf l /\ all_recs l = all_recs l /\ l_hw l <= l_hw l) by (split; [exact Hw|]; split; [reflexivity|lia]).
  destruct o as [ms|rs|t| |h]; cbn [hstep spec_step].
  - unfold append_log. rewrite (append_spec maxb false l ms Hw). destruct (l_ro l); [exact Hid|].
    destruct ms as [|m t]; [cbn [number]; rewrite app_nil_r; exact Hid|]. cbn [andb].
    destruct (roll_write maxb l (number (newest l + 1) (m :: t)) Hw (number_sorted _ _)) as (H1 & H2 & _ & H4).
    split; [exact H1|]. split; [exact H2|]. rewrite H4. apply Z.le_refl.
  - unfold append_set. destruct rs as [|r t]; [rewrite app_nil_r; exact Hid|].
    destruct (append_set_refines maxb l (r :: t) _ _ Hw Hv eq_refl) as (H1 & H2 & _ & H4).
    split; [exact H1|]. split; [exact H2|]. rewrite H4. apply Z.le_refl.
  - destruct (truncate_refines l t Hw) as (H1 & H2 & H3). split; [assumption|]. split; [assumption|rewrite H3; apply Z.le_refl].
  - destruct (reopen_refines l Hw) as (H1 & H2 & H3). split; [assumption|]. split; [assumption|rewrite H3; apply Z.le_refl].
  - destruct (set_hw_refines l h Hw) as (H1 & H2 & H3 & _). split; [assumption|]. split; assumption.
Qed.

Lemma new_log_wf : wf new_log.
Proof. split; [discriminate|]. cbn. repeat split; lia. Qed.

Inductive reachable (maxb : Z) : log -> Prop :=
| reach_new : reachable maxb new_log
| reach_step l o : reachable maxb l -> hop_valid l o -> reachable maxb (hstep maxb l o).

Theorem reachable_wf maxb l : reachable maxb l -> wf l.
Proof.
  induction 1 as [|l o _ IH Hv]; [apply new_log_wf|]. apply (hstep_refines maxb l o IH Hv).
Qed.

Definition at_off (a : list rec) (o : Z) : list rec := filter (fun r => r_off r =? o) a.

Lemma at_off_below a b lo o : sorted_from lo b -> o < lo -> at_off (a ++ b) o = at_off a o.
Proof.
  intros Hs Ho. unfold at_off. rewrite filter_app, (filter_false _ b), app_nil_r; [reflexivity|].
  eapply Forall_impl; [|exact (sorted_ge _ _ Hs)]. cbn beta. intros; lia.
Qed.

(* what is readable at an offset never changes, except that a truncation removes a suffix *)
Theorem immutable maxb l o x : wf l -> hop_valid l o -> x <= newest l ->
  (forall t, o = HTruncate t -> x < t) ->
  at_off (all_recs (hstep maxb l o)) x = at_off (all_recs l) x.
Proof.
  intros Hw Hv Hx Ht. destruct (hstep_refines maxb l o Hw Hv) as (_ & Hc & _). rewrite Hc.
  destruct o as [ms|rs|t| |h]; cbn [spec_step]; try reflexivity.
  - destruct (l_ro l); [reflexivity|]. apply (at_off_below _ _ (newest l + 1)); [apply number_sorted|lia].
  - apply (at_off_below _ _ (newest l + 1)); [exact Hv|lia].
  - (* x < t: a record at x passes the truncation's filter *)
    specialize (Ht t eq_refl). apply filter_absorb. intros r Hr. unfold lt_off. lia.
Qed.
