(* Crash safety of Truncate: the later segments are deleted oldest first, the segment that holds the
   truncation point is deleted or replaced by its records below the point, and the epoch cache is cut. *)
From LB Require Import Base.Prelude Log.Model Log.Retention Log.Compact Log.Proofs Log.Refine Log.Disk Log.DiskBase Log.DiskProofs Log.DiskBlocks Log.DiskClean.
From Coq Require Import ZifyBool.
Open Scope Z_scope.

Lemma trunc_segs_shape o preS t postS : forall first, Forall (fun sg => s_next sg <= o) preS -> o < s_next t ->
  trunc_segs first (preS ++ t :: postS) o =
  preS ++ (if (s_base t =? o) && negb (match preS with [] => first | _ => false end) then [] else [mkSeg (s_base t) (keep_below (s_recs t) o)]).
Proof.
  induction preS as [|x r IH]; intros first HF Ht; cbn [app trunc_segs].
  - destruct (Z.ltb_spec o (s_next t)); [reflexivity|lia].
  - inversion HF as [|? ? Hx Hr]; subst. destruct (Z.ltb_spec o (s_next x)); [lia|].
    rewrite (IH false Hr Ht). destruct r; reflexivity.
Qed.

Section Trunc.
  Variable s : st.
  Hypothesis G : Good s.
  Variable o : Z.

  Let d0 := s_disk s.
  Let c0 := d_ep d0.
  Definition K (x : rec) : Prop := r_off x < o.
  Let R := Image s (DTrunc o) K.

  Variables (pre : list mseg) (t : mseg) (later : list mseg).
  Hypothesis Hshape : d_segs d0 = pre ++ t :: later.
  Hypothesis Hnext : o < s_next (m_seg t).
  Hypothesis Hpre : Forall (fun sg => s_next sg <= o) (map m_seg pre).

  Let bt := m_base t.
  Let nf := keep_below (m_recs t) o.

  Lemma WF_shape : WF (map m_seg pre ++ m_seg t :: map m_seg later).
  Proof. pose proof (g_wf _ G) as Hw. unfold segs_of in Hw. fold d0 in Hw. rewrite Hshape, map_app in Hw. exact Hw. Qed.

  Lemma t_sorted : sorted_from (m_base t) (m_recs t).
  Proof. apply (wf_sorted _ WF_shape (m_seg t)). apply in_elt. Qed.

  Lemma nf_filter : nf = filter (lt_off o) (m_recs t).
  Proof. unfold nf. apply (keep_below_filter (m_base t)). apply t_sorted. Qed.

  Lemma later_above m x : In m later -> In x (m_recs m) -> o <= r_off x.
  Proof.
    intros Hm Hx. pose proof WF_shape as Hw.
    assert (Ht : In (m_seg t) (map m_seg pre ++ m_seg t :: map m_seg later)) by apply in_elt.
    assert (Hmm : In (m_seg m) (map m_seg pre ++ m_seg t :: map m_seg later)) by (apply in_or_app; right; right; apply in_map; exact Hm).
    pose proof (proj2 (bases_lt_mid _ _ _ _ (wf_bases _ Hw)) _ (in_map m_seg _ _ Hm)) as Hlt.
    assert (Hn : s_next (m_seg t) <= m_base m).
    { apply (next_after_le (m_base t)); [exact (Z.lt_le_incl _ _ Hlt)|apply (wf_below _ Hw _ _ Ht Hmm Hlt)]. }
    pose proof (WF_range _ _ x Hw Hmm Hx). unfold m_base in *. lia.
  Qed.

  Lemma pre_below m x : In m pre -> In x (m_recs m) -> r_off x < o.
  Proof.
    intros Hm Hx. rewrite Forall_forall in Hpre. specialize (Hpre (m_seg m) (in_map m_seg _ _ Hm)).
    pose proof (WF_range _ (m_seg m) x WF_shape ltac:(apply in_or_app; left; apply in_map; exact Hm) Hx). lia.
  Qed.

  Lemma keep_front x : In x (content d0) -> K x -> In x (mrecs pre) \/ In x nf.
  Proof.
    intros Hx HK. apply in_mrecs in Hx. destruct Hx as (m & Hm & Hx). rewrite Hshape in Hm. apply in_app_or in Hm. destruct Hm as [Hm|[<-|Hm]].
    - left. apply in_mrecs. exists m. split; assumption.
    - right. rewrite nf_filter. apply filter_In. split; [exact Hx|]. unfold lt_off, K in *. lia.
    - pose proof (later_above m x Hm Hx). unfold K in HK. lia.
  Qed.

  Lemma trunc_segs_sub X : msub X (t :: later) -> msub (pre ++ X) (d_segs d0).
  Proof. intros HX. rewrite Hshape. apply msub_app; [apply msub_refl|exact HX]. Qed.

  Lemma trunc_image X orph c : msub X (t :: later) -> (forall x, In x nf -> In x (mrecs X)) -> csorted c -> cmatch c (mrecs (pre ++ X)) ->
    R (cmk s (pre ++ X) orph c).
  Proof.
    intros HX Hnf Hcs Hcm. apply shrunk_image; [exact G|apply trunc_segs_sub; exact HX| |exact Hcs|exact Hcm].
    intros x Hx HK. rewrite mrecs_app. apply in_or_app. destruct (keep_front x Hx HK) as [H|H]; [left; exact H|right; apply Hnf; exact H].
  Qed.

  Lemma trunc_image0 X orph : msub X (t :: later) -> (forall x, In x nf -> In x (mrecs X)) -> R (cmk s (pre ++ X) orph c0).
  Proof.
    intros HX Hnf. apply trunc_image; [exact HX|exact Hnf|apply (g_csorted _ G)|apply old_cache_fits; [exact G|apply trunc_segs_sub; exact HX]].
  Qed.

  Lemma with_t_image rest orph : subseq rest later -> R (cmk s (pre ++ t :: rest) orph c0).
  Proof.
    intros Hs. apply trunc_image0; [apply ms_same, subseq_msub; exact Hs|].
    intros x Hx. unfold mrecs. cbn [map concat]. apply in_or_app. left. apply (subseq_incl _ _ (keep_below_subseq (m_recs t) o)). exact Hx.
  Qed.

  Lemma repl_image fi orph : fi = m_recs t \/ fi = nf -> R (cmk s (pre ++ [mkM (mkSeg bt nf) (Some fi)]) orph c0).
  Proof.
    intros Hfi. apply trunc_image0; [apply ms_repl; [apply keep_below_subseq|exact Hfi|apply msub_nil]|].
    intros x Hx. unfold mrecs. cbn [map concat m_recs m_seg s_recs]. rewrite app_nil_r. exact Hx.
  Qed.

  Lemma nf_nil : m_base t = o -> nf = [].
  Proof. intros E. rewrite nf_filter. apply (filter_lt_none (m_base t)); [apply t_sorted|lia]. Qed.

  Definition tI : mseg := mkM (mkSeg bt nf) (Some nf).
  (* what is left of the segment at the truncation point: nothing when it starts at o and is not the first *)
  Definition tX (i : nat) : list mseg := if (m_base t =? o) && negb (Nat.eqb i 0) then [] else [tI].
  Definition final_segs (i : nat) : list mseg := pre ++ tX i.

  Lemma tX_sub i : msub (tX i) (t :: later).
  Proof.
    unfold tX. destruct ((m_base t =? o) && negb (Nat.eqb i 0)); [apply msub_nil|].
    apply ms_repl; [apply keep_below_subseq|right; reflexivity|apply msub_nil].
  Qed.

  (* either way it holds the records of t below the point: there are none when t starts at o *)
  Lemma tX_recs i : mrecs (tX i) = nf.
  Proof.
    unfold tX. destruct ((m_base t =? o) && negb (Nat.eqb i 0)) eqn:Ec.
    - symmetry. apply nf_nil. lia.
    - unfold mrecs. cbn [map concat tI m_recs m_seg s_recs]. apply app_nil_r.
  Qed.

  Lemma final_ne i : i = length pre -> final_segs i <> [].
  Proof.
    intros Hi. unfold final_segs, tX. destruct ((m_base t =? o) && negb (Nat.eqb i 0)) eqn:Ec; [|destruct pre; discriminate].
    apply andb_true_iff in Ec. destruct Ec as [_ Ei]. destruct pre; [subst i; discriminate Ei|discriminate].
  Qed.

  Lemma final_idx i m : In m (final_segs i) -> m_idx m = Some (m_recs m).
  Proof.
    intros Hm. apply in_app_or in Hm. destruct Hm as [Hm|Hm].
    - apply (g_idx _ G). fold d0. rewrite Hshape. apply in_or_app. left. exact Hm.
    - unfold tX in Hm. destruct ((m_base t =? o) && negb (Nat.eqb i 0)); [destruct Hm|]. destruct Hm as [<-|[]]. reflexivity.
  Qed.

  Lemma final_image i orph c : csorted c -> cmatch c (mrecs (final_segs i)) -> R (cmk s (final_segs i) orph c).
  Proof. intros Hcs Hcm. apply trunc_image; [apply tX_sub|intros x Hx; rewrite tX_recs; exact Hx|exact Hcs|exact Hcm]. Qed.

  (* the log end after the truncation, as the script computes it *)
  Lemma final_next i : i = length pre -> final_segs i <> [] ->
    s_next (m_seg (last (final_segs i) dummy_m)) = trunc_next (segs_of d0) i (m_seg t) o.
  Proof.
    intros Hi Hne. unfold final_segs, tX, trunc_next in *. change (s_base (m_seg t)) with (m_base t).
    destruct ((m_base t =? o) && negb (Nat.eqb i 0)) eqn:Ec.
    - rewrite app_nil_r in *. destruct (exists_last Hne) as (pre' & lastp & E). rewrite E, last_last. unfold segs_of. rewrite Hshape, E.
      rewrite <- app_assoc. cbn [app]. rewrite map_app. cbn [map]. subst i. rewrite E, app_length. cbn [length].
      (* position i - 1 is that of lastp, the segment in front of t *)
      replace (length pre' + 1 - 1)%nat with (length (map m_seg pre')) by (rewrite map_length; lia).
      rewrite nth_middle. reflexivity.
    - rewrite last_last. reflexivity.
  Qed.

  Definition cfin (i : nat) : epoch_cache := cache_clear_latest c0 (Z.min o (trunc_next (segs_of d0) i (m_seg t) o)).

  Lemma final_is_model i : i = length pre -> map m_seg (final_segs i) = trunc_segs true (segs_of d0) o.
  Proof.
    intros Hi. unfold segs_of. rewrite Hshape, map_app. cbn [map]. rewrite (trunc_segs_shape o (map m_seg pre) (m_seg t) (map m_seg later) true Hpre Hnext).
    unfold final_segs, tX. change (s_base (m_seg t)) with (m_base t).
    assert (Ef : (match map m_seg pre with [] => true | _ => false end) = Nat.eqb i 0) by (subst i; destruct pre; reflexivity).
    rewrite Ef, map_app. destruct ((m_base t =? o) && negb (Nat.eqb i 0)); reflexivity.
  Qed.

  Lemma final_below i x : In x (mrecs (final_segs i)) -> r_off x < o.
  Proof.
    unfold final_segs. rewrite mrecs_app, tX_recs, nf_filter. intros Hx. apply in_app_or in Hx. destruct Hx as [Hx|Hx].
    - apply in_mrecs in Hx. destruct Hx as (m & Hm & Hx). exact (pre_below m x Hm Hx).
    - apply filter_In in Hx. unfold lt_off in Hx. lia.
  Qed.

  Lemma trunc_seq i : i = length pre -> find_segment (segs_of d0) o = Some (i, m_seg t) ->
    seq R (at_ d0) (trunc_effs fixed d0 o) (at_ (cmk s (final_segs i) [] (cfin i))) /\ R (cmk s (final_segs i) [] (cfin i)) /\
    final_segs i <> [] /\ (forall m, In m (final_segs i) -> m_idx m = Some (m_recs m)) /\ cbound (cfin i) (m_next (last (final_segs i) dummy_m)).
  Proof.
    intros Hi Hfind. pose proof (final_ne i Hi) as Hfne.
    assert (Hfit : cmatch c0 (mrecs (final_segs i))) by (apply old_cache_fits; [exact G|apply trunc_segs_sub, tX_sub]).
    assert (Rfin : forall orph, R (cmk s (final_segs i) orph c0)) by (intros orph; apply final_image; [apply (g_csorted _ G)|exact Hfit]).
    (* what is left lies below both o and the new log end, which the index of the last segment gives *)
    pose proof (mi_wf _ _ (proj1 (Rfin []))) as Hw. unfold segs_of in Hw. cbn [cmk d_segs] in Hw.
    destruct (exists_last Hfne) as (fl & fx & Ef).
    assert (Hfx : In (m_seg fx) (map m_seg (final_segs i))) by (rewrite Ef; apply in_map, in_elt).
    assert (Enx : m_next (last (final_segs i) dummy_m) = trunc_next (segs_of d0) i (m_seg t) o).
    { rewrite <- (final_next i Hi Hfne), Ef, last_last.
      apply m_next_consistent; [apply (final_idx i); rewrite Ef; apply in_elt|exact (WF_base_nonneg _ _ Hw Hfx)|exact (wf_sorted _ Hw _ Hfx)]. }
    assert (Hbelow_next : forall x, In x (mrecs (final_segs i)) -> r_off x < trunc_next (segs_of d0) i (m_seg t) o).
    { intros x Hx. rewrite <- (final_next i Hi Hfne), Ef, last_last. rewrite Ef, map_app in Hw. apply (WF_all_below_next _ _ Hw).
      rewrite Ef, mrecs_flat, map_app in Hx. exact Hx. }
    assert (RF : R (cmk s (final_segs i) [] (cfin i))).
    { apply final_image; [apply clear_latest_sorted, (g_csorted _ G)|]. apply clear_latest_match; [exact Hfit|].
      intros y Hy. apply Z.min_glb_lt; [exact (final_below i y Hy)|exact (Hbelow_next y Hy)]. }
    split; [|split; [exact RF|split; [exact Hfne|split; [exact (final_idx i)|]]]].
    2:{ rewrite Enx. intros e st Hin. exact (Z.le_trans _ _ _ (clear_latest_bound c0 _ (g_csorted _ G) e st Hin) (Z.le_min_r _ _)). }
    unfold trunc_effs. rewrite Hfind.
    assert (Hsk : skipn (S i) (d_segs d0) = later).
    { rewrite Hshape, Hi. change (t :: later) with ([t] ++ later). rewrite app_assoc, <- (last_length pre t). apply skipn_app_exact. }
    rewrite Hsk.
    apply (seq_conseq R (at_ (cmk s (d_segs d0) [] c0)) _ (at_ (cmk s (final_segs i) [] (cfin i))) _); [exact (start_at s G)|auto|].
    rewrite Hshape.
    assert (Rfront : R (cmk s (pre ++ [t]) [] c0)) by (apply with_t_image, subseq_nil).
    apply (seq_app R _ _ (at_ (cmk s (pre ++ [t]) [] c0))).
    { apply (seq_foreach R (fun m => del_effs (TMain (m_base m))) (fun _ todo => at_ (cmk s (pre ++ t :: todo) [] c0)) later []); [|apply main_at; [apply Image_main|exact Rfront]].
      intros d x tl E. cbn [app] in E.
      (* x stands behind pre ++ [t] *)
      pose proof (del_mid_seq s (DTrunc o) K (pre ++ [t]) x tl (d_scr d0) (d_hw d0) c0) as Hdel. rewrite <- !app_assoc in Hdel.
      apply Hdel; [apply with_t_image; rewrite E; apply subseq_suffix|].
      intros orph. apply with_t_image. apply (subseq_trans _ (x :: tl)); [apply sub_skip, subseq_refl|rewrite E; apply subseq_suffix]. }
    apply seq_cons_point.
    apply (seq_app R _ _ (at_ (cmk s (final_segs i) [] c0))).
    { revert Rfin. unfold final_segs, tX. change (s_base (m_seg t)) with (m_base t). destruct ((m_base t =? o) && negb (Nat.eqb i 0)); intros Rfin.
      - apply (del_mid_seq s (DTrunc o) K pre t []); [exact Rfront|exact Rfin].
      - apply (replace_mid_seq s (DTrunc o) K pre t []); [exact Rfront| |apply Rfin].
        rewrite (g_idx _ G t) by (fold d0; rewrite Hshape; apply in_elt). apply repl_image. left. reflexivity. }
    apply seq_cons_point. fold c0. cbv zeta. fold (cfin i).
    destruct (cache_latest_off c0 <? Z.min o (trunc_next (segs_of d0) i (m_seg t) o)) eqn:El.
    - unfold cfin, cache_clear_latest. rewrite El. apply seq_nil. apply main_at; [apply Image_main|exact (Rfin [])].
    - apply (seq_main R _ (MEpochs (cfin i))); [apply Image_main|reflexivity|apply meq_refl|exact (Rfin [])|exact RF].
  Qed.
End Trunc.
