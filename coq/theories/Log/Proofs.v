(* Sorted record lists and well-formed chains of segments (Log/Model.v): the bounds sortedness
   gives, where a run of records ends, filters of a sorted list and its split at an offset, the
   flattened content of a chain, and what find_segment finds in it. *)
From LB Require Import Base.Prelude Log.Model.
From Coq Require Import ZifyBool.
Open Scope Z_scope.

(* offsets strictly increasing, the first at least lo; gaps are allowed (compaction leaves them) *)
Fixpoint sorted_from (lo : Z) (rs : list rec) : Prop :=
  match rs with
  | [] => True
  | r :: t => lo <= r_off r /\ sorted_from (r_off r + 1) t
  end.

(* next offset after a run of records that starts no lower than lo *)
Definition next_after (lo : Z) (rs : list rec) : Z :=
  if last_off_of rs =? -1 then lo else last_off_of rs + 1.

Lemma last_off_snoc rs r : last_off_of (rs ++ [r]) = r_off r.
Proof. unfold last_off_of. rewrite fold_left_app. reflexivity. Qed.

Lemma sorted_from_weaken lo lo' rs : lo' <= lo -> sorted_from lo rs -> sorted_from lo' rs.
Proof. destruct rs as [|r t]; simpl; [auto|]. intros H [H1 H2]. split; [lia|assumption]. Qed.

Lemma sorted_ge lo rs : sorted_from lo rs -> Forall (fun r => lo <= r_off r) rs.
Proof.
  revert lo. induction rs as [|r t IH]; intros lo Hs; [constructor|]. destruct Hs as [H1 H2].
  constructor; [exact H1|]. eapply Forall_impl; [|exact (IH _ H2)]. cbn beta. intros; lia.
Qed.

Lemma sorted_app_lt lo a b x y : sorted_from lo (a ++ b) -> In x a -> In y b -> r_off x < r_off y.
Proof.
  revert lo. induction a as [|r t IH]; intros lo Hs Hx Hy; [destruct Hx|]. destruct Hs as [_ Hs].
  destruct Hx as [->|Hx]; [|exact (IH _ Hs Hx Hy)].
  apply sorted_ge in Hs. rewrite Forall_forall in Hs. specialize (Hs y (in_or_app _ _ _ (or_intror Hy))). lia.
Qed.

Lemma sorted_last_ge lo rs : sorted_from lo rs -> rs <> [] -> lo <= last_off_of rs.
Proof.
  intros Hs Hne. destruct (exists_last Hne) as (t & r & ->). rewrite last_off_snoc.
  apply sorted_ge, Forall_app, proj2, Forall_inv in Hs. exact Hs.
Qed.

Lemma last_off_empty_iff lo rs : 0 <= lo -> sorted_from lo rs -> (last_off_of rs = -1 <-> rs = []).
Proof.
  intros Hlo Hs. split; intros H; [|subst; reflexivity].
  destruct rs as [|r t]; [reflexivity|]. pose proof (sorted_last_ge lo _ Hs ltac:(discriminate)). lia.
Qed.

Lemma next_after_nil lo : next_after lo [] = lo.
Proof. reflexivity. Qed.

(* 0 <= lo, here and below: next_after recognises the empty run by last_off_of = -1, which therefore must
   not be an offset of the run *)
Lemma next_after_snoc lo rs r : 0 <= lo -> sorted_from lo (rs ++ [r]) -> next_after lo (rs ++ [r]) = r_off r + 1.
Proof.
  intros Hlo Hs. pose proof (sorted_last_ge lo _ Hs ltac:(destruct rs; discriminate)) as H.
  unfold next_after. rewrite last_off_snoc in *. destruct (Z.eqb_spec (r_off r) (-1)); [lia|reflexivity].
Qed.

Lemma next_after_app lo a b : 0 <= lo -> sorted_from lo (a ++ b) ->
  next_after lo (a ++ b) = next_after (next_after lo a) b.
Proof.
  intros Hlo Hs. destruct b as [|r t _] using rev_ind; [rewrite app_nil_r; reflexivity|].
  rewrite app_assoc in *. rewrite next_after_snoc by assumption.
  pose proof (sorted_last_ge lo _ Hs ltac:(destruct (a ++ t); discriminate)) as H.
  unfold next_after at 1. rewrite last_off_snoc in *. destruct (Z.eqb_spec (r_off r) (-1)); [lia|reflexivity].
Qed.

Lemma next_after_cons lo r t : 0 <= lo -> lo <= r_off r -> sorted_from (r_off r + 1) t ->
  next_after lo (r :: t) = next_after (r_off r + 1) t.
Proof.
  intros Hlo H1 H2. change (r :: t) with ([r] ++ t). rewrite next_after_app by (assumption || (split; assumption)).
  f_equal. apply (next_after_snoc lo [] r Hlo). split; [assumption|exact I].
Qed.

Lemma next_after_mono lo lo' rs : lo <= lo' -> next_after lo rs <= next_after lo' rs.
Proof. intros H. unfold next_after. destruct (last_off_of rs =? -1); lia. Qed.

Lemma next_after_ge lo rs : 0 <= lo -> sorted_from lo rs -> lo <= next_after lo rs.
Proof.
  intros Hlo Hs. destruct rs as [|r t _] using rev_ind; [apply Z.le_refl|].
  rewrite next_after_snoc by assumption. apply sorted_ge, Forall_app, proj2, Forall_inv in Hs. lia.
Qed.

Lemma next_after_le lo rs b : lo <= b -> (forall x, In x rs -> r_off x < b) -> next_after lo rs <= b.
Proof.
  intros Hlo H. destruct rs as [|r t _] using rev_ind; [exact Hlo|].
  assert (Hr : r_off r < b) by (apply H, in_or_app; right; left; reflexivity).
  unfold next_after. rewrite last_off_snoc. destruct (r_off r =? -1); lia.
Qed.

Lemma sorted_all_lt lo rs : 0 <= lo -> sorted_from lo rs -> Forall (fun r => lo <= r_off r < next_after lo rs) rs.
Proof.
  revert lo. induction rs as [|r t IH]; intros lo Hlo Hs; [constructor|].
  destruct Hs as [H1 H2]. rewrite next_after_cons by assumption.
  pose proof (next_after_ge (r_off r + 1) t ltac:(lia) H2) as Hge.
  constructor; [lia|].
  eapply Forall_impl; [|apply (IH (r_off r + 1)); [lia|exact H2]]. cbn beta. intros a Ha. lia.
Qed.

Lemma sorted_app lo a b : 0 <= lo ->
  sorted_from lo (a ++ b) <-> sorted_from lo a /\ sorted_from (next_after lo a) b.
Proof.
  revert lo. induction a as [|r t IH]; intros lo Hlo; cbn [app sorted_from]; [rewrite next_after_nil; tauto|]. split.
  - intros [H1 H2]. apply IH in H2; [|lia]. rewrite next_after_cons by tauto. tauto.
  - intros [[H1 H2] H3]. rewrite next_after_cons in H3 by assumption. split; [assumption|]. apply IH; [lia|tauto].
Qed.

Lemma filter_sorted f lo rs : sorted_from lo rs -> sorted_from lo (filter f rs).
Proof.
  revert lo. induction rs as [|r t IH]; intros lo Hs; [exact I|]. destruct Hs as [H1 H2].
  cbn [filter]. destruct (f r).
  - split; [exact H1|]. apply IH. exact H2.
  - apply IH. eapply sorted_from_weaken; [|exact H2]. lia.
Qed.

Definition ge_off (o : Z) (r : rec) : bool := o <=? r_off r.
Definition lt_off (o : Z) (r : rec) : bool := r_off r <? o.

Lemma filter_ge_all lo rs o : sorted_from lo rs -> o <= lo -> filter (ge_off o) rs = rs.
Proof.
  intros Hs Ho. apply filter_true. eapply Forall_impl; [|exact (sorted_ge _ _ Hs)].
  unfold ge_off. cbn beta. intros; lia.
Qed.

Lemma filter_ge_none rs o : Forall (fun r => r_off r < o) rs -> filter (ge_off o) rs = [].
Proof. intros H. apply filter_false. eapply Forall_impl; [|exact H]. unfold ge_off. cbn beta. intros; lia. Qed.

Lemma filter_lt_all rs o : Forall (fun r => r_off r < o) rs -> filter (lt_off o) rs = rs.
Proof. intros H. apply filter_true. eapply Forall_impl; [|exact H]. unfold lt_off. cbn beta. intros; lia. Qed.

Lemma filter_lt_none lo rs o : sorted_from lo rs -> o <= lo -> filter (lt_off o) rs = [].
Proof.
  intros Hs Ho. apply filter_false. eapply Forall_impl; [|exact (sorted_ge _ _ Hs)].
  unfold lt_off. cbn beta. intros; lia.
Qed.

Lemma sorted_partition lo rs o : sorted_from lo rs -> rs = filter (lt_off o) rs ++ filter (ge_off o) rs.
Proof.
  revert lo. induction rs as [|r t IH]; intros lo Hs; [reflexivity|]. destruct Hs as [H1 H2].
  cbn [filter]. unfold lt_off at 1, ge_off at 1.
  destruct (Z.ltb_spec (r_off r) o), (Z.leb_spec o (r_off r)); try lia.
  - cbn [app]. f_equal. exact (IH _ H2).
  - rewrite (filter_lt_none (r_off r + 1)), (filter_ge_all (r_off r + 1)) by (assumption || lia). reflexivity.
Qed.

Lemma from_entry_filter lo rs o : sorted_from lo rs -> from_entry rs o = filter (ge_off o) rs.
Proof.
  revert lo. induction rs as [|r t IH]; intros lo Hs; [reflexivity|].
  destruct Hs as [H1 H2]. cbn [from_entry filter]. unfold ge_off at 1.
  destruct (Z.leb_spec o (r_off r)).
  - f_equal. symmetry. apply (filter_ge_all (r_off r + 1)); [assumption|lia].
  - apply (IH (r_off r + 1)). assumption.
Qed.

Lemma keep_below_filter lo rs o : sorted_from lo rs -> keep_below rs o = filter (lt_off o) rs.
Proof.
  revert lo. induction rs as [|r t IH]; intros lo Hs; [reflexivity|].
  destruct Hs as [H1 H2]. cbn [keep_below filter]. unfold lt_off at 1.
  destruct (Z.ltb_spec (r_off r) o).
  - f_equal. apply (IH (r_off r + 1)). assumption.
  - symmetry. apply (filter_lt_none (r_off r + 1)); [assumption|lia].
Qed.

Lemma keep_below_sorted lo rs o : sorted_from lo rs -> sorted_from lo (keep_below rs o).
Proof. intros Hs. rewrite (keep_below_filter lo) by exact Hs. apply filter_sorted, Hs. Qed.

(* lo: the least base the first segment may have; each later one starts at or after its predecessor's
   next offset. A segment may be empty, and bases may leave gaps. *)
Fixpoint segs_wf (lo : Z) (segs : list seg) : Prop :=
  match segs with
  | [] => True
  | s :: t => lo <= s_base s /\ sorted_from (s_base s) (s_recs s) /\ segs_wf (s_next s) t
  end.

Definition wf (l : log) : Prop := l_segs l <> [] /\ segs_wf 0 (l_segs l).

Lemma s_next_eq s : s_next s = next_after (s_base s) (s_recs s).
Proof. reflexivity. Qed.

Lemma s_next_ge s : 0 <= s_base s -> sorted_from (s_base s) (s_recs s) -> s_base s <= s_next s.
Proof. apply next_after_ge. Qed.

Lemma seg_all_lt_next s : 0 <= s_base s -> sorted_from (s_base s) (s_recs s) ->
  Forall (fun r => s_base s <= r_off r < s_next s) (s_recs s).
Proof. apply sorted_all_lt. Qed.

Lemma segs_wf_weaken lo lo' segs : lo' <= lo -> segs_wf lo segs -> segs_wf lo' segs.
Proof. destruct segs; simpl; [auto|]. intros H (H1 & H2 & H3). repeat split; try assumption. lia. Qed.

Definition flat (segs : list seg) : list rec := concat (map s_recs segs).

Lemma flat_cons s t : flat (s :: t) = s_recs s ++ flat t.
Proof. reflexivity. Qed.

Lemma flat_app a b : flat (a ++ b) = flat a ++ flat b.
Proof. unfold flat. rewrite map_app, concat_app. reflexivity. Qed.

Lemma flat_single s : flat [s] = s_recs s.
Proof. apply app_nil_r. Qed.

Lemma flat_mid pre s post : flat (pre ++ s :: post) = flat pre ++ s_recs s ++ flat post.
Proof. apply flat_app. Qed.

(* the next offset of the last segment; lo is the answer for no segments *)
Fixpoint chain_next (lo : Z) (segs : list seg) : Z :=
  match segs with
  | [] => lo
  | s :: t => chain_next (s_next s) t
  end.

Lemma chain_next_app lo a b : chain_next lo (a ++ b) = chain_next (chain_next lo a) b.
Proof. revert lo. induction a as [|s t IH]; intros lo; [reflexivity|]. cbn [app chain_next]. apply IH. Qed.

Lemma chain_next_last lo segs : segs <> [] -> chain_next lo segs = s_next (last segs dummy_seg).
Proof.
  intros Hne. destruct (exists_last Hne) as (pre & a & ->). rewrite chain_next_app, last_last. reflexivity.
Qed.

Lemma segs_wf_app lo a b : segs_wf lo (a ++ b) <-> segs_wf lo a /\ segs_wf (chain_next lo a) b.
Proof.
  revert lo. induction a as [|s t IH]; intros lo; cbn [app segs_wf chain_next]; [tauto|].
  rewrite IH. tauto.
Qed.

Lemma segs_wf_snoc lo pre a : segs_wf lo (pre ++ [a]) <->
  segs_wf lo pre /\ chain_next lo pre <= s_base a /\ sorted_from (s_base a) (s_recs a).
Proof. rewrite segs_wf_app. cbn [segs_wf]. tauto. Qed.

Lemma flat_sorted lo segs : 0 <= lo -> segs_wf lo segs ->
  sorted_from lo (flat segs) /\ next_after lo (flat segs) <= chain_next lo segs.
Proof.
  revert lo. induction segs as [|s t IH]; intros lo Hlo Hw; [split; [exact I|apply Z.le_refl]|].
  destruct Hw as (H1 & H2 & H3). rewrite flat_cons. cbn [chain_next].
  pose proof (s_next_ge s ltac:(lia) H2) as Hn.
  destruct (IH (s_next s) ltac:(lia) H3) as [IH1 IH2].
  pose proof (next_after_mono lo (s_base s) (s_recs s) H1) as Hna. rewrite <- s_next_eq in Hna.
  assert (Hs : sorted_from lo (s_recs s ++ flat t)).
  { apply sorted_app; [lia|]. split; eapply sorted_from_weaken; [exact H1|exact H2|exact Hna|exact IH1]. }
  split; [exact Hs|]. rewrite next_after_app by assumption.
  pose proof (next_after_mono _ _ (flat t) Hna). lia.
Qed.

Lemma segs_wf_bounds lo segs : 0 <= lo -> segs_wf lo segs ->
  lo <= chain_next lo segs /\ sorted_from lo (flat segs) /\
  Forall (fun r => r_off r < chain_next lo segs) (flat segs).
Proof.
  intros Hlo Hw. destruct (flat_sorted lo segs Hlo Hw) as [Hs Hn].
  pose proof (next_after_ge lo _ Hlo Hs). split; [lia|]. split; [exact Hs|].
  eapply Forall_impl; [|exact (sorted_all_lt lo _ Hlo Hs)]. cbn beta. intros; lia.
Qed.

Lemma chain_next_ge lo segs : 0 <= lo -> segs_wf lo segs -> lo <= chain_next lo segs.
Proof. apply segs_wf_bounds. Qed.

Lemma flat_all_ge lo segs : 0 <= lo -> segs_wf lo segs -> Forall (fun r => lo <= r_off r) (flat segs).
Proof. intros Hlo Hw. apply sorted_ge, flat_sorted; assumption. Qed.

Lemma wf_all_sorted l : wf l -> sorted_from 0 (all_recs l).
Proof. intros [_ H]. apply (flat_sorted 0 (l_segs l)); [lia|exact H]. Qed.

Lemma newest_chain l : wf l -> newest l + 1 = chain_next 0 (l_segs l).
Proof. intros [Hne _]. unfold newest, active. rewrite (chain_next_last 0) by exact Hne. lia. Qed.

Lemma wf_newest_ge l : wf l -> -1 <= newest l.
Proof.
  intros Hw. pose proof (newest_chain l Hw). pose proof (chain_next_ge 0 _ (Z.le_refl 0) (proj2 Hw)). lia.
Qed.

Lemma wf_active l : wf l -> exists pre, l_segs l = pre ++ [active l] /\ segs_wf 0 pre /\
  0 <= chain_next 0 pre <= s_base (active l) /\ sorted_from (s_base (active l)) (s_recs (active l)).
Proof.
  intros [Hne Hs]. destruct (exists_last Hne) as (pre & a & E). unfold active. rewrite E, last_last.
  rewrite E in Hs. apply segs_wf_snoc in Hs. destruct Hs as (Hp & Hb & Ha).
  pose proof (chain_next_ge 0 pre ltac:(lia) Hp). exists pre. auto.
Qed.

Lemma find_segment_spec lo segs o : 0 <= lo -> segs_wf lo segs ->
  match find_segment segs o with
  | Some (i, s) => exists pre post, segs = pre ++ s :: post /\ length pre = i /\
      Forall (fun r => r_off r < o) (flat pre) /\
      0 <= s_base s <= s_next s /\ sorted_from (s_base s) (s_recs s) /\ o < s_next s /\
      s_next s <= chain_next lo segs /\ sorted_from (s_next s) (flat post)
  | None => Forall (fun r => r_off r < o) (flat segs) /\ (segs <> [] -> chain_next lo segs <= o)
  end.
Proof.
  revert lo. induction segs as [|s t IH]; intros lo Hlo Hw; cbn [find_segment chain_next].
  - split; [constructor|congruence].
  - destruct Hw as (H1 & H2 & H3). pose proof (s_next_ge s ltac:(lia) H2) as Hn.
    destruct (segs_wf_bounds (s_next s) t ltac:(lia) H3) as (Hc & Hst & _).
    destruct (Z.ltb_spec o (s_next s)).
    + exists [], t. split; [reflexivity|]. split; [reflexivity|]. split; [constructor|].
      split; [clear - Hlo H1 Hn; lia|]. split; [exact H2|]. split; [assumption|]. split; [exact Hc|exact Hst].
    + assert (Hs : Forall (fun r => r_off r < o) (s_recs s)).
      { eapply Forall_impl; [|exact (seg_all_lt_next s ltac:(lia) H2)]. cbn beta. intros; lia. }
      specialize (IH (s_next s) ltac:(lia) H3). rewrite flat_cons.
      destruct (find_segment t o) as [[i u]|].
      * destruct IH as (pre & post & -> & <- & Hpre & Hrest). exists (s :: pre), post.
        split; [reflexivity|]. split; [reflexivity|]. split; [|exact Hrest].
        rewrite flat_cons. apply Forall_app. split; assumption.
      * destruct IH as [IH1 IH2]. split; [apply Forall_app; split; assumption|]. intros _.
        destruct t; [exact H|apply IH2; discriminate].
Qed.

Lemma find_segment_some segs o i s : find_segment segs o = Some (i, s) ->
  exists pre post, segs = pre ++ s :: post /\ length pre = i /\ o < s_next s /\
                   Forall (fun s' => s_next s' <= o) pre.
Proof.
  revert i. induction segs as [|x t IH]; intros i H; [discriminate|].
  cbn [find_segment] in H. destruct (Z.ltb_spec o (s_next x)) as [Hlt|Hge].
  - injection H as <- <-. exists [], t. repeat split; [assumption|constructor].
  - destruct (find_segment t o) as [[j u]|] eqn:E; [|discriminate].
    injection H as <- <-. destruct (IH j eq_refl) as (pre & post & E1 & L & Hlt & HF).
    exists (x :: pre), post. subst t. repeat split; try assumption; [cbn; lia|].
    constructor; assumption.
Qed.
