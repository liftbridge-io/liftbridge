(* Crash safety for a crash inside a write (the model is Log/DiskTear.v): commitlog.New always finds and
   cuts off what a torn write left, and recovers a good log. *)
From LB Require Import Base.Prelude Log.Model Log.Retention Log.Compact Log.Proofs Log.Refine Log.Disk Log.DiskBase Log.DiskProofs
  Log.DiskBlocks Log.DiskTrunc Log.DiskClean Log.DiskCleanOp Log.DiskSafety Log.DiskTear.
From Coq Require Import ZifyBool.
Open Scope Z_scope.

Lemma fsize_firstn_frame rs : forall k, fsize (firstn k rs) + frame_size rs k <= fsize rs.
Proof.
  induction rs as [|r t IH]; intros k; [destruct k; cbn; lia|].
  destruct k as [|k]; unfold frame_size; cbn [firstn nth_error fsize fold_right]; fold (fsize t).
  - pose proof (fsize_nonneg t). lia.
  - fold (fsize (firstn k t)). specialize (IH k). unfold frame_size in IH. lia.
Qed.

Lemma firstn_nil_iff {A} (l : list A) k : (k < length l)%nat -> firstn k l = [] -> k = O.
Proof. destruct l as [|x l]; [intros H; exfalso; exact (Nat.nlt_0_r _ H)|]. destruct k; [reflexivity|intros _; discriminate]. Qed.

(* rebuildIndex makes one index right; the others stay right or visibly short *)
Lemma rebuilt_mid H d b : Mid H d -> Mid H (rebuilt d b) /\ content (rebuilt d b) = content d.
Proof.
  intros M. assert (Es : segs_of (rebuilt d b) = segs_of d) by (apply seg_upd_segs; reflexivity).
  split; [|exact (segs_content _ _ Es)]. apply (Mid_same_segs H d); [exact M|exact Es| |reflexivity|reflexivity].
  intros m Hin. destruct (seg_upd_in _ _ _ _ Hin) as [Hm|(m0 & _ & ->)]; [apply (mi_fix _ _ M); exact Hm|left; reflexivity].
Qed.

(* only an append can be torn (tear_eff). nm: not an append to a main file; na: not an append at all *)
Definition is_append (e : eff) : bool := match e with FAppendLog _ _ | FAppendIdx _ _ => true | _ => false end.
Definition main_append (e : eff) : bool := match e with FAppendLog (TMain _) _ | FAppendIdx (TMain _) _ => true | _ => false end.
Definition nm (e : eff) : bool := negb (main_append e).
Definition na (e : eff) : bool := negb (is_append e).

Lemma tear_is_append e k e' : tear_eff e k = Some e' -> is_append e = true.
Proof. destruct e; cbn; try discriminate; reflexivity. Qed.

Lemma na_nm e : na e = true -> nm e = true.
Proof. destruct e as [| |[]|[]| | | | | | |]; cbn; intros; try reflexivity; discriminate. Qed.

Lemma forallb_concat_map {A B} (f : B -> bool) (g : A -> list B) l : (forall x, forallb f (g x) = true) -> forallb f (concat (map g l)) = true.
Proof. intros H. induction l as [|x t IH]; [reflexivity|]. cbn [map concat]. rewrite forallb_app, H, IH. reflexivity. Qed.

Lemma nth_error_skip_na a b n e : forallb na a = true -> nth_error (a ++ b) n = Some e -> is_append e = true ->
  exists n', n = (length a + n')%nat /\ nth_error b n' = Some e /\ firstn n (a ++ b) = a ++ firstn n' b.
Proof.
  intros Ha Hn He. destruct (Nat.lt_ge_cases n (length a)) as [Hlt|Hge].
  - rewrite nth_error_app1 in Hn by exact Hlt. apply nth_error_In in Hn. rewrite forallb_forall in Ha. specialize (Ha e Hn).
    unfold na in Ha. rewrite He in Ha. discriminate.
  - exists (n - length a)%nat. split; [clear - Hge; lia|]. rewrite nth_error_app2 in Hn by exact Hge. split; [exact Hn|].
    rewrite firstn_app. rewrite firstn_all2 by exact Hge. reflexivity.
Qed.

Lemma epoch_effs_na rs : forall c, forallb na (epoch_effs c rs) = true.
Proof.
  induction rs as [|r t IH]; intros c; [reflexivity|]. cbn [epoch_effs]. rewrite forallb_app, IH, andb_true_r.
  destruct ((cache_latest_epoch c <? r_ep r)%N && (cache_latest_off c <=? r_off r)); reflexivity.
Qed.

Lemma write_torn H d1 rs : Good (mkSt d1 H) -> rs <> [] -> sorted_from (m_next (d_active d1)) rs -> ep_mono (cache_latest_epoch (d_ep d1)) rs ->
  let b := m_base (d_active d1) in
  let W := write_effs fixed (d_ep d1) b rs in
  forall n e k e', nth_error W n = Some e -> tear_eff e k = Some e' ->
    let d := run_effs d1 (firstn n W ++ [e']) in
    Mid H d /\ (exists i, content d = content d1 ++ firstn i rs) /\
    exists m, seg_get (d_segs d) b = Some m /\
      ((e = FAppendLog (TMain b) rs /\ fsize (m_fi m) <= fsize (m_recs m)) \/
       (e = FAppendIdx (TMain b) rs /\ fsize (m_fi m) + frame_size rs k <= fsize (m_recs m))).
Proof.
  intros G Hne Hsort Hmono b W n e k e' Hnth Htear.
  destruct (good_active _ G) as (pre & a & E & Ha & _). cbn [s_disk] in E, Ha.
  pose proof (write_states H d1 pre a rs G E Hsort Hmono) as (EL & EI & Hget & HM). cbn beta zeta in EL, EI, Hget, HM.
  subst b W. rewrite Ha in Hnth |- *. set (c0 := d_ep d1) in *.
  change (write_effs fixed c0 (m_base a) rs) with
    (epoch_effs c0 rs ++ [FPoint PEpochsAssigned; FAppendLog (TMain (m_base a)) rs; FPoint PLogWritten; FAppendIdx (TMain (m_base a)) rs; FPoint PIndexWritten]) in Hnth |- *.
  destruct (nth_error_skip_na _ _ _ _ (epoch_effs_na rs c0) Hnth (tear_is_append _ _ _ Htear)) as (n' & -> & Hn' & ->).
  rewrite <- app_assoc, run_effs_app, (proj2 (epoch_effs_run rs c0 d1 eq_refl)).
  (* n' is a position in the five-element tail; only 1, the log, and 3, the index, hold an effect that tears *)
  destruct n' as [|[|[|[|[|n']]]]]; cbn [nth_error] in Hn'; try (injection Hn' as <-; cbn in Htear; discriminate).
  - (* inside the write to the log: k frames arrived, the index still ends where the log ended *)
    injection Hn' as <-. cbn [tear_eff] in Htear. destruct (k <? length rs)%nat; [|discriminate]. injection Htear as <-.
    cbn [firstn app run_effs fold_left]. rewrite EL.
    destruct (HM k (Some (m_recs a))) as [M Ec]; [apply (prefix_fixable _ _ (firstn k rs)); reflexivity|].
    split; [exact M|split; [exists k; exact Ec|]]. eexists. split; [apply Hget|left; split; [reflexivity|]].
    unfold m_fi. cbn [m_idx m_recs m_seg s_recs]. rewrite fsize_app. pose proof (fsize_nonneg (firstn k rs)) as Hk. clear - Hk. lia.
  - (* inside the store of the entries: the log holds the batch, k of its entries arrived *)
    injection Hn' as <-. cbn [tear_eff] in Htear. destruct (k <? length rs)%nat; [|discriminate]. injection Htear as <-.
    cbn [firstn app run_effs fold_left]. rewrite EL. change (apply_eff ?x (FPoint PLogWritten)) with x. rewrite EI. cbn [app_opt].
    specialize (HM (length rs)). rewrite firstn_all in HM.
    destruct (HM (Some (m_recs a ++ firstn k rs))) as [M Ec].
    { apply (prefix_fixable _ _ (skipn k rs)). cbn [m_seg s_recs]. rewrite <- app_assoc, firstn_skipn. reflexivity. }
    split; [exact M|split; [exists (length rs); rewrite firstn_all; exact Ec|]]. eexists. split; [apply Hget|right; split; [reflexivity|]].
    unfold m_fi. cbn [m_idx m_recs m_seg s_recs]. rewrite !fsize_app, <- Z.add_assoc. apply Z.add_le_mono_l, fsize_firstn_frame.
  - destruct n'; discriminate.
Qed.

(* the other operations append to scratch files only *)
Lemma replace_effs_nm v s b nf pc : forallb nm (replace_effs v s b nf pc) = true.
Proof.
  unfold replace_effs, copy_effs. rewrite !forallb_app, forallb_concat_map by reflexivity. destruct (v_fresh v); reflexivity.
Qed.

Lemma trunc_effs_nm v d o : forallb nm (trunc_effs v d o) = true.
Proof.
  unfold trunc_effs. destruct (find_segment (segs_of d) o) as [[i s]|]; [|reflexivity].
  rewrite !forallb_app, forallb_concat_map by reflexivity.
  destruct ((s_base s =? o) && negb (Nat.eqb i 0)); [|rewrite replace_effs_nm]; destruct (cache_latest_off (d_ep d) <? _); reflexivity.
Qed.

Lemma retention_effs_nm lim ttl segs : forallb nm (fst (retention_effs lim ttl segs)) = true.
Proof. unfold retention_effs. cbn [fst]. rewrite !forallb_app, !forallb_concat_map by reflexivity. reflexivity. Qed.

Lemma compact_one_nm key_of v hw all s : forallb nm (compact_one key_of v hw all s) = true.
Proof.
  unfold compact_one. destruct (filter _ (s_recs s)) as [|x t]; [|apply replace_effs_nm].
  rewrite !forallb_app. destruct (v_fresh v); reflexivity.
Qed.

Lemma clean_effs_nm key_of v c lim ttl d hw : forallb nm (clean_effs key_of v c lim ttl d hw) = true.
Proof.
  unfold clean_effs. pose proof (retention_effs_nm lim ttl (segs_of d)) as Hr. destruct (retention_effs lim ttl (segs_of d)) as [dels s3]. cbn [fst] in Hr.
  assert (Hd : forall tl, forallb nm tl = true -> forallb nm (dels ++ tl) = true) by (intros tl Ht; rewrite forallb_app, Hr, Ht; reflexivity).
  destruct c; [|apply Hd; reflexivity]. destruct s3 as [|s1 [|s2 t]]; try (apply Hd; reflexivity).
  apply Hd. rewrite forallb_app, forallb_concat_map by (intros; apply compact_one_nm). reflexivity.
Qed.

Section TornSafety.
  Variable key_of : bytes -> option bytes.
  Variable p : params.
  Hypothesis maxb_pos : 0 < p_maxb p.

  Lemma script_nm s o es : match o with DAppend _ | DASet _ | DCreate => False | _ => True end ->
    script key_of fixed p s o = Some es -> forallb nm es = true.
  Proof.
    destruct o as [|ms|rs|t|ttl|h| |e|]; intros Ho; try contradiction; cbn [script]; intros [= <-]; try reflexivity.
    - apply trunc_effs_nm.
    - apply clean_effs_nm.
    - destruct ((cache_latest_epoch _ <? e)%N && _); reflexivity.
  Qed.

  (* tearing an append to a scratch file changes nothing commitlog.New looks at *)
  Lemma scratch_torn s o keep es n e k e' : forallb nm es = true ->
    (forall i, Image s o keep (run_effs (s_disk s) (firstn i es))) ->
    nth_error es n = Some e -> tear_eff e k = Some e' ->
    Image s o keep (run_effs (s_disk s) (firstn n es ++ [e'])) /\
    forall z, recover_t fixed (run_effs (s_disk s) (firstn n es ++ [e'])) (spot_of e z) = Some (recover fixed (run_effs (s_disk s) (firstn n es ++ [e']))).
  Proof.
    intros Hnm Hall Hn Ht. rewrite forallb_forall in Hnm. specialize (Hnm e (nth_error_In _ _ Hn)).
    rewrite run_effs_app. cbn [run_effs fold_left]. fold (run_effs (s_disk s) (firstn n es)).
    destruct e as [| |[b|b sf] rs|[b|b sf] rs| | | | | | |]; cbn [tear_eff nm main_append negb] in Ht, Hnm; try discriminate; destruct (k <? length rs)%nat; try discriminate; injection Ht as <-.
    all: split; [|intros [z|]; reflexivity].
    all: apply (Image_main s o keep (run_effs (s_disk s) (firstn n es))); [apply meq_sym, scratch_meq; reflexivity|apply Hall].
  Qed.

  Lemma split_effs_na d sp : split_effs (p_maxb p) d = Some sp -> forallb na sp = true.
  Proof.
    unfold split_effs. destruct (p_maxb p <=? m_pos (d_active d)); [|intros [= <-]; reflexivity].
    destruct (seg_get (d_segs d) (m_next (d_active d))); [discriminate|intros [= <-]; reflexivity].
  Qed.

  Definition safe_after (s : st) (o : dop) (s' : st) : Prop :=
    Good s' /\ s_hw s' <= s_hw s /\ (forall x, In x (content (s_disk s')) -> In x (content (s_disk s)) \/ In x (incoming s o)) /\ (forall x, In x (content (s_disk s)) -> survives key_of p s o x -> In x (content (s_disk s'))).

  Lemma append_torn s o es : Good s -> op_ok s o -> match o with DAppend _ | DASet _ => True | _ => False end ->
    script key_of fixed p s o = Some es ->
    forall n e k e' z, nth_error es n = Some e -> tear_eff e k = Some e' ->
      let d := run_effs (s_disk s) (firstn n es ++ [e']) in
      tear_ok d e k z ->
      exists r, recover_t fixed d (spot_of e z) = Some r /\ safe_after s o (mkSt r (d_hw r)).
  Proof.
    intros G Hop Hw Es n e k e' z Hn Ht d Hok.
    destruct (split_seq p maxb_pos s o (survives key_of p s o) G) as (sp & Esp & Hseq).
    destruct (Hseq _ eq_refl) as [_ Hroll]. set (d1 := run_effs (s_disk s) sp) in *.
    destruct Hroll as (G1 & Hc1 & Hep1 & Hnx1 & Hhw1 & Hsg1). set (rs := incoming s o).
    (* the script is the roll and then the write of the incoming batch, which op_ok makes a legal one *)
    assert (Hes : es = sp ++ write_effs fixed (d_ep (s_disk s)) (m_base (d_active d1)) rs /\
                  rs <> [] /\ sorted_from (next_of s) rs /\ ep_mono (cache_latest_epoch (d_ep (s_disk s))) rs).
    { destruct o as [|ms|rs0| | | | | |]; try contradiction; cbn [script op_ok] in Es, Hop; rewrite Esp in Es; fold d1 in Es; injection Es as <-.
      - rewrite Hnx1. destruct Hop as [Hne Hmono]. split; [reflexivity|split; [exact (number_ne _ _ Hne)|split; [apply number_sorted|exact Hmono]]].
      - split; [reflexivity|exact Hop]. }
    destruct Hes as (-> & Hne & Hsort & Hmono).
    destruct (nth_error_skip_na _ _ _ _ (split_effs_na _ _ Esp) Hn (tear_is_append _ _ _ Ht)) as (n' & -> & Hn' & Ef).
    assert (Ed : d = run_effs d1 (firstn n' (write_effs fixed (d_ep d1) (m_base (d_active d1)) rs) ++ [e'])).
    { unfold d. rewrite Ef, <- app_assoc, run_effs_app. fold d1. rewrite Hep1. reflexivity. }
    rewrite <- Hep1 in Hn'.
    destruct (write_torn (s_hw s) d1 rs G1 Hne ltac:(rewrite Hnx1; exact Hsort) ltac:(rewrite Hep1; exact Hmono) n' e k e' Hn' Ht) as (M & (i & Hc) & m & Hget & Hcase).
    rewrite <- Ed in M, Hc, Hget.
    assert (Himg : Image s o (survives key_of p s o) d).
    { split; [exact M|]. rewrite Hc, Hc1. split.
      - intros x Hx. apply in_app_or in Hx. destruct Hx as [Hx|Hx]; [left; exact Hx|right]. fold rs. rewrite <- (firstn_skipn i rs). apply in_or_app. left. exact Hx.
      - intros x Hx _. apply in_or_app. left. exact Hx. }
    destruct z as [j|].
    2:{ exists (recover fixed d). split; [destruct e; reflexivity|]. exact (image_recovers s o _ d d Himg M eq_refl). }
    (* the junk makes the index end elsewhere than the log, so the index is rebuilt *)
    destruct (rebuilt_mid _ _ (m_base (d_active d1)) M) as [Mr Ecr]. pose proof (image_recovers s o _ d _ Himg Mr Ecr) as Hreb.
    destruct Hcase as [[-> Hle]|[-> Hle]]; cbn [spot_of recover_t tear_ok] in Hok |- *; rewrite Hget in *; cbn [fixed v_rebuild andb].
    - destruct (Z.eqb_spec (fsize (m_fi m)) (fsize (m_recs m) + j)) as [Eq|_]; [clear -Eq Hle Hok; lia|]. eexists. split; [reflexivity|exact Hreb].
    - destruct (Z.eqb_spec j (fsize (m_recs m))) as [Eq|_]; [clear -Eq Hle Hok; lia|]. eexists. split; [reflexivity|exact Hreb].
  Qed.

  (* A crash inside any write of any operation: commitlog.New succeeds on what is left (the junk is
     always found and cut off), and what it recovers is as good as after a crash between two effects. *)
  Theorem torn_safe s o n k z e d : Good s -> op_ok s o ->
    torn_image key_of fixed p s o n k = Some (e, d) -> tear_ok d e k z ->
    exists s', crash_torn key_of fixed p s o n k z = Some s' /\ safe_after s o s'.
  Proof.
    intros G Hok Hti Htok. unfold torn_image in Hti. unfold crash_torn.
    destruct (script key_of fixed p s o) as [es|] eqn:Es; [|discriminate].
    destruct (nth_error es n) as [e0|] eqn:Hn; [|discriminate]. destruct (tear_eff e0 k) as [e'|] eqn:Ht; [|discriminate].
    injection Hti as <- <-.
    enough (Hrec : exists r, recover_t fixed (run_effs (s_disk s) (firstn n es ++ [e'])) (spot_of e0 z) = Some r /\ safe_after s o (mkSt r (d_hw r))).
    { destruct Hrec as (r & -> & Hs). eexists. split; [reflexivity|exact Hs]. }
    assert (Hother : match o with DAppend _ | DASet _ | DCreate => False | _ => True end ->
                     exists r, recover_t fixed (run_effs (s_disk s) (firstn n es ++ [e'])) (spot_of e0 z) = Some r /\ safe_after s o (mkSt r (d_hw r))).
    { intros Ho. destruct (op_prefixes key_of p maxb_pos s o G Hok) as (es' & Es' & Hall & _). rewrite Es in Es'. injection Es' as <-.
      destruct (scratch_torn s o _ es n e0 k e' (script_nm s o es Ho Es) Hall Hn Ht) as [Himg Hrec]. eexists. split; [apply Hrec|].
      exact (image_recovers s o _ _ _ Himg (proj1 Himg) eq_refl). }
    destruct o as [|ms|rs|t|ttl|h| |e|]; try (apply Hother; exact I).
    - contradiction.
    - exact (append_torn s _ es G Hok I Es n e0 k e' z Hn Ht Htok).
    - exact (append_torn s _ es G Hok I Es n e0 k e' z Hn Ht Htok).
  Qed.
End TornSafety.

Section TornHistories.
  Variable key_of : bytes -> option bytes.
  Variable p : params.
  Hypothesis maxb_pos : 0 < p_maxb p.

  Inductive tstep := TStep (h : hstep) | TTorn (o : dop) (n k : nat) (z : option Z).

  Definition tstep_run (s : option st) (t : tstep) : option st :=
    match s with
    | None => None
    | Some s0 => match t with
                 | TStep h => hstep_run key_of fixed p (Some s0) h
                 | TTorn o n k z => crash_torn key_of fixed p s0 o n k z
                 end
    end.

  Definition tstep_ok (s : st) (t : tstep) : Prop :=
    match t with
    | TStep h => op_ok s (op_of h)
    | TTorn o n k z => op_ok s o /\ exists e d, torn_image key_of fixed p s o n k = Some (e, d) /\ tear_ok d e k z
    end.

  Fixpoint thist_ok (s : st) (ts : list tstep) : Prop :=
    match ts with
    | [] => True
    | t :: r => tstep_ok s t /\ forall s', tstep_run (Some s) t = Some s' -> thist_ok s' r
    end.

  Lemma thist_ok_cons s t r s' : tstep_ok s t -> tstep_run (Some s) t = Some s' -> thist_ok s' r -> thist_ok s (t :: r).
  Proof. intros Hop E Hr. split; [exact Hop|]. intros s'' E'. rewrite E in E'. injection E' as <-. exact Hr. Qed.

  Theorem thistory_safe ts : forall s, Good s -> thist_ok s ts ->
    exists s', fold_left tstep_run ts (Some s) = Some s' /\ Good s'.
  Proof.
    induction ts as [|t r IH]; intros s G Hok; [exists s; split; [reflexivity|exact G]|].
    destruct Hok as [Hop Hrest]. cbn [fold_left].
    assert (Hstep : exists s1, tstep_run (Some s) t = Some s1 /\ Good s1).
    { destruct t as [h|o n k z]; cbn [tstep_run tstep_ok] in *.
      - exact (step_safe key_of p maxb_pos s h G Hop).
      - destruct Hop as (Hop & e & d & Hti & Htok). destruct (torn_safe key_of p maxb_pos s o n k z e d G Hop Hti Htok) as (s1 & E1 & G1 & _).
        exists s1. split; [exact E1|exact G1]. }
    destruct Hstep as (s1 & E1 & G1). rewrite E1. apply IH; [exact G1|apply Hrest; exact E1].
  Qed.
End TornHistories.
