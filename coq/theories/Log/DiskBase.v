(* Foundations for the crash-recovery proofs: subsequences, frame sizes, the leader-epoch cache
   against a sorted list of records (assigning, trimming at either end), the pairwise
   well-formedness of a segment list, good states and crash images (`Good`, `Mid`, `fixable`), and
   what commitlog.New (recover) makes of a directory whose indexes may be behind. *)
From LB Require Import Base.Prelude Log.Model Log.Retention Log.Compact Log.Proofs Log.Disk.
From Coq Require Import ZifyBool.
Open Scope Z_scope.

Inductive subseq {A} : list A -> list A -> Prop :=
| sub_nil : subseq [] []
| sub_skip x l1 l2 : subseq l1 l2 -> subseq l1 (x :: l2)
| sub_keep x l1 l2 : subseq l1 l2 -> subseq (x :: l1) (x :: l2).

Lemma subseq_refl {A} (l : list A) : subseq l l.
Proof. induction l; constructor; assumption. Qed.

Lemma subseq_nil {A} (l : list A) : subseq [] l.
Proof. induction l; constructor; assumption. Qed.

Lemma subseq_incl {A} (a b : list A) : subseq a b -> forall x, In x a -> In x b.
Proof.
  induction 1 as [|y l1 l2 _ IH|y l1 l2 _ IH]; intros x Hx; [destruct Hx|right; apply IH; exact Hx|].
  destruct Hx as [<-|Hx]; [left; reflexivity|right; apply IH; exact Hx].
Qed.

Lemma filter_subseq {A} (p : A -> bool) l : subseq (filter p l) l.
Proof. induction l as [|x t IH]; cbn [filter]; [constructor|]. destruct (p x); constructor; exact IH. Qed.

Lemma subseq_trans {A} (a b c : list A) : subseq a b -> subseq b c -> subseq a c.
Proof.
  intros Hab Hbc. revert a Hab. induction Hbc as [|x l1 l2 _ IH|x l1 l2 _ IH]; intros a Hab.
  - exact Hab.
  - apply sub_skip. apply IH. exact Hab.
  - inversion Hab as [|y a1 b1 H1|y a1 b1 H1]; subst.
    + apply sub_skip. apply IH. exact H1.
    + apply sub_keep. apply IH. exact H1.
Qed.

Lemma keep_below_subseq rs o : subseq (keep_below rs o) rs.
Proof.
  induction rs as [|r t IH]; cbn [keep_below]; [constructor|].
  destruct (r_off r <? o); [constructor; exact IH|apply subseq_nil].
Qed.

Lemma sorted_from_subseq a b : subseq a b -> forall lo, sorted_from lo b -> sorted_from lo a.
Proof.
  induction 1 as [|x l1 l2 _ IH|x l1 l2 _ IH]; intros lo Hs; [exact I| |].
  - destruct Hs as [H1 H2]. apply IH. eapply sorted_from_weaken; [|exact H2]. lia.
  - destruct Hs as [H1 H2]. split; [exact H1|apply IH; exact H2].
Qed.

Lemma subseq_app2 {A} (a b b' : list A) : subseq b' b -> subseq (a ++ b') (a ++ b).
Proof. intros H. induction a as [|x t IH]; [exact H|]. cbn [app]. apply sub_keep. exact IH. Qed.

Lemma subseq_suffix {A} (a b : list A) : subseq b (a ++ b).
Proof. induction a as [|x t IH]; [apply subseq_refl|]. cbn [app]. apply sub_skip. exact IH. Qed.

Lemma in_concat_map {A B} (f : A -> list B) l y : In y (concat (map f l)) <-> exists x, In x l /\ In y (f x).
Proof. rewrite <- flat_map_concat_map. apply in_flat_map. Qed.

Lemma map_split3 {A B} (f : A -> B) l a x b : map f l = a ++ x :: b ->
  exists l1 y l2, l = l1 ++ y :: l2 /\ map f l1 = a /\ f y = x /\ map f l2 = b.
Proof.
  intros E. apply map_eq_app in E. destruct E as (l1 & l2' & -> & E1 & E2). apply map_eq_cons in E2. destruct E2 as (y & l2 & -> & E2 & E3).
  exists l1, y, l2. repeat split; assumption.
Qed.

Lemma last_map {A B} (f : A -> B) l d : l <> [] -> last (map f l) (f d) = f (last l d).
Proof.
  induction l as [|x t IH]; intros Hne; [contradiction|]. destruct t as [|y t']; [reflexivity|].
  change (map f (x :: y :: t')) with (f x :: map f (y :: t')). cbn [last]. apply IH. discriminate.
Qed.

Lemma rsize_pos r : 0 < rsize r.
Proof. unfold rsize. lia. Qed.

Lemma fsize_app a b : fsize (a ++ b) = fsize a + fsize b.
Proof. induction a as [|x t IH]; cbn [app fsize fold_right]; [reflexivity|]. fold (fsize (t ++ b)). fold (fsize t). lia. Qed.

Lemma fsize_nonneg a : 0 <= fsize a.
Proof. induction a as [|x t IH]; cbn [fsize fold_right]; [lia|]. fold (fsize t). pose proof (rsize_pos x). lia. Qed.

Lemma fsize_pos_ne rs : rs <> [] -> 0 < fsize rs.
Proof. destruct rs as [|x t]; [contradiction|intros _]. cbn [fsize fold_right]. fold (fsize t). pose proof (rsize_pos x). pose proof (fsize_nonneg t). lia. Qed.

Lemma subseq_fsize a b : subseq a b -> a = b \/ fsize a < fsize b.
Proof.
  induction 1 as [|x l1 l2 _ IH|x l1 l2 _ IH]; [left; reflexivity| |].
  - right. cbn [fsize fold_right]. fold (fsize l2). pose proof (rsize_pos x). destruct IH as [->|IH]; lia.
  - destruct IH as [->|IH]; [left; reflexivity|right]. cbn [fsize fold_right]. fold (fsize l1). fold (fsize l2). lia.
Qed.

Lemma s_pos_fsize_aux rs a : fold_left (fun a r => a + rsize r) rs a = a + fsize rs.
Proof. revert a. induction rs as [|x t IH]; intros a; cbn [fold_left fsize fold_right]; [lia|]. fold (fsize t). rewrite IH. lia. Qed.
Lemma s_pos_fsize s : s_pos s = fsize (s_recs s).
Proof. unfold s_pos. rewrite s_pos_fsize_aux. lia. Qed.

(* the leader-epoch cache: epochs strictly increasing, start offsets non-decreasing *)
Fixpoint csorted (c : epoch_cache) : Prop :=
  match c with
  | [] => True
  | (e, s) :: r => (forall e' s', In (e', s') r -> (e < e')%N /\ s <= s') /\ csorted r
  end.

(* the epoch the cache attributes to offset o: that of the last entry that starts at or before o *)
Definition epoch_at (c : epoch_cache) (o : Z) : N := fold_left (fun a es => if snd es <=? o then fst es else a) c 0%N.
Definition epoch_from (a : N) (c : epoch_cache) (o : Z) : N := fold_left (fun a es => if snd es <=? o then fst es else a) c a.

Definition cmatch (c : epoch_cache) (rs : list rec) : Prop := forall x, In x rs -> epoch_at c (r_off x) = r_ep x.
(* no entry starts beyond `next`, the offset the next record will get *)
Definition cbound (c : epoch_cache) (next : Z) : Prop := forall e s, In (e, s) c -> s <= next.

Fixpoint ep_mono (lo : N) (rs : list rec) : Prop :=
  match rs with
  | [] => True
  | r :: t => (lo <= r_ep r)%N /\ ep_mono (r_ep r) t
  end.

Lemma epoch_at_from c o : epoch_at c o = epoch_from 0%N c o.
Proof. reflexivity. Qed.

Lemma epoch_from_app a c1 c2 o : epoch_from a (c1 ++ c2) o = epoch_from (epoch_from a c1 o) c2 o.
Proof. unfold epoch_from. apply fold_left_app. Qed.

Lemma epoch_from_cons a e s c o : epoch_from a ((e, s) :: c) o = epoch_from (if s <=? o then e else a) c o.
Proof. reflexivity. Qed.

Lemma epoch_at_snoc c e s o : epoch_at (c ++ [(e, s)]) o = if s <=? o then e else epoch_at c o.
Proof. unfold epoch_at. rewrite fold_left_app. reflexivity. Qed.

Lemma latest_snoc c e s : cache_latest_epoch (c ++ [(e, s)]) = e /\ cache_latest_off (c ++ [(e, s)]) = s.
Proof. unfold cache_latest_epoch, cache_latest_off. rewrite !fold_left_app. split; reflexivity. Qed.

Lemma latest_nil : cache_latest_epoch [] = 0%N /\ cache_latest_off [] = -1.
Proof. split; reflexivity. Qed.

Lemma latest_cases c : c = [] \/ exists c' e s, c = c' ++ [(e, s)] /\ cache_latest_epoch c = e /\ cache_latest_off c = s.
Proof.
  destruct c as [|[e s] c' _] using rev_ind; [left; reflexivity|right].
  exists c', e, s. split; [reflexivity|apply latest_snoc].
Qed.

Lemma epoch_at_top c o : cbound c o -> epoch_at c o = cache_latest_epoch c.
Proof.
  intros Hb. destruct (latest_cases c) as [->|(c' & e & s & -> & -> & _)]; [reflexivity|].
  rewrite epoch_at_snoc. specialize (Hb e s (in_elt _ _ _)). destruct (Z.leb_spec s o); [reflexivity|lia].
Qed.

Lemma cbound_latest_off c n : cbound c n -> -1 <= n -> cache_latest_off c <= n.
Proof.
  intros Hb Hn. destruct (latest_cases c) as [->|(c' & e & s & -> & _ & ->)]; [exact Hn|]. apply (Hb e s), in_elt.
Qed.

Lemma csorted_app c1 c2 : csorted (c1 ++ c2) <-> csorted c1 /\ csorted c2 /\
  (forall e1 s1 e2 s2, In (e1, s1) c1 -> In (e2, s2) c2 -> (e1 < e2)%N /\ s1 <= s2).
Proof.
  induction c1 as [|[e s] r [IH1 IH2]]; cbn [app csorted].
  - split; [intros H; split; [exact I|split; [exact H|intros e1 s1 e2 s2 []]]|intros (_ & H & _); exact H].
  - split.
    + intros [H1 H2]. destruct (IH1 H2) as (H3 & H4 & H5). split; [split; [|exact H3]|split; [exact H4|]].
      * intros e' s' Hin. apply H1, in_or_app. left. exact Hin.
      * intros e1 s1 e2 s2 [[= <- <-]|Hi1] Hi2; [apply H1, in_or_app; right; exact Hi2|apply (H5 e1 s1 e2 s2 Hi1 Hi2)].
    + intros ((H1 & H2) & H3 & H4). split.
      * intros e' s' Hin. apply in_app_or in Hin. destruct Hin as [Hin|Hin]; [apply H1; exact Hin|apply (H4 e s e' s'); [left; reflexivity|exact Hin]].
      * apply IH2. split; [exact H2|split; [exact H3|]]. intros e1 s1 e2 s2 Hi1. apply H4. right. exact Hi1.
Qed.

Lemma csorted_latest c e s : csorted c -> In (e, s) c -> (e <= cache_latest_epoch c)%N /\ s <= cache_latest_off c.
Proof.
  intros Hs Hin. destruct (latest_cases c) as [->|(c' & e0 & s0 & -> & -> & ->)]; [destruct Hin|].
  apply csorted_app in Hs. destruct Hs as (_ & _ & H).
  apply in_app_or in Hin. destruct Hin as [Hin|[[= <- <-]|[]]]; [|lia].
  specialize (H e s e0 s0 Hin (or_introl eq_refl)). lia.
Qed.

Lemma cmatch_ext c c' rs : (forall x, In x rs -> epoch_at c' (r_off x) = epoch_at c (r_off x)) -> cmatch c rs -> cmatch c' rs.
Proof. intros He Hm x Hx. rewrite (He x Hx). exact (Hm x Hx). Qed.

Lemma assign_sorted c e o : csorted c -> csorted (cache_assign c e o).
Proof.
  intros Hs. unfold cache_assign. destruct ((cache_latest_epoch c <? e)%N && (cache_latest_off c <=? o)) eqn:E; [|exact Hs].
  apply andb_true_iff in E. destruct E as [E1 E2]. apply N.ltb_lt in E1. apply Z.leb_le in E2.
  apply csorted_app. split; [exact Hs|]. split; [split; [intros e' s' []|exact I]|].
  intros e1 s1 e2 s2 Hi1 [[= <- <-]|[]]. destruct (csorted_latest c e1 s1 Hs Hi1). lia.
Qed.

Lemma assign_bound c e o n : cbound c n -> o <= n -> cbound (cache_assign c e o) n.
Proof.
  intros Hb Ho e' s' Hin. unfold cache_assign in Hin. destruct (_ && _); [|exact (Hb e' s' Hin)].
  apply in_app_or in Hin. destruct Hin as [Hin|[[= <- <-]|[]]]; [exact (Hb e' s' Hin)|exact Ho].
Qed.

Lemma epoch_at_assign c e o x : x < o -> epoch_at (cache_assign c e o) x = epoch_at c x.
Proof.
  intros Hx. unfold cache_assign. destruct (_ && _); [|reflexivity].
  rewrite epoch_at_snoc. destruct (Z.leb_spec o x); [lia|reflexivity].
Qed.

Lemma assign_latest c e o : cbound c o -> -1 <= o -> (cache_latest_epoch c <= e)%N ->
  cache_latest_epoch (cache_assign c e o) = e /\ epoch_at (cache_assign c e o) o = e.
Proof.
  intros Hb Ho He. pose proof (cbound_latest_off c o Hb Ho) as Hl. unfold cache_assign.
  destruct (N.ltb_spec (cache_latest_epoch c) e) as [_|Hge]; cbn [andb].
  - destruct (Z.leb_spec (cache_latest_off c) o); [|lia]. split; [apply latest_snoc|].
    rewrite epoch_at_snoc, Z.leb_refl. reflexivity.
  - assert (E : cache_latest_epoch c = e) by lia. split; [exact E|]. rewrite epoch_at_top; assumption.
Qed.

Definition cfit (c : epoch_cache) (next : Z) (old : list rec) : Prop :=
  csorted c /\ cbound c next /\ cmatch c old /\ forall x, In x old -> r_off x < next.

Lemma cfit_assign c next old r : cfit c next old -> 0 <= next <= r_off r -> (cache_latest_epoch c <= r_ep r)%N ->
  let c1 := cache_assign c (r_ep r) (r_off r) in cfit c1 (r_off r + 1) (old ++ [r]) /\ cache_latest_epoch c1 = r_ep r.
Proof.
  intros (Hs & Hb & Hm & Hlt) Hr He c1.
  assert (Hb' : cbound c (r_off r)) by (intros e s Hin; exact (Z.le_trans _ _ _ (Hb e s Hin) (proj2 Hr))).
  destruct (assign_latest c (r_ep r) (r_off r) Hb' ltac:(clear - Hr; lia) He) as [El Eat].
  split; [|exact El]. split; [apply assign_sorted; exact Hs|]. split; [|split].
  - apply assign_bound; [|apply Z.le_succ_diag_r]. intros e s Hin. specialize (Hb' e s Hin). clear - Hb'. lia.
  - intros x Hx. apply in_app_or in Hx. destruct Hx as [Hx|[<-|[]]]; [|exact Eat].
    unfold c1. rewrite epoch_at_assign; [exact (Hm x Hx)|]. exact (Z.lt_le_trans _ _ _ (Hlt x Hx) (proj2 Hr)).
  - intros x Hx. apply in_app_or in Hx. destruct Hx as [Hx|[<-|[]]]; [specialize (Hlt x Hx)|]; clear - Hlt Hr; lia.
Qed.

Lemma cfit_assign_all rs : forall c next old, 0 <= next -> cfit c next old -> sorted_from next rs -> ep_mono (cache_latest_epoch c) rs ->
  let c' := cache_assign_all c rs in
  cfit c' (next_after next rs) (old ++ rs) /\ (cache_latest_epoch c <= cache_latest_epoch c')%N.
Proof.
  induction rs as [|r t IH]; intros c next old H0 Hc Hsort Hmono; cbn zeta.
  - rewrite app_nil_r. split; [exact Hc|apply N.le_refl].
  - destruct Hsort as [Hr Ht]. destruct Hmono as [He Hmt].
    destruct (cfit_assign c next old r Hc (conj H0 Hr) He) as [Hc1 El].
    rewrite (next_after_cons next r t H0 Hr Ht). replace (old ++ r :: t) with ((old ++ [r]) ++ t) by (rewrite <- app_assoc; reflexivity).
    rewrite <- El in Hmt. destruct (IH _ (r_off r + 1) _ ltac:(clear - H0 Hr; lia) Hc1 Ht Hmt) as [I1 I2]. split; [exact I1|].
    rewrite El in I2. exact (N.le_trans _ _ _ He I2).
Qed.

Lemma csorted_filter p c : csorted c -> csorted (filter p c).
Proof.
  induction c as [|[e s] r IH]; intros Hs; [exact I|]. destruct Hs as [H1 H2]. cbn [filter].
  destruct (p (e, s)); [|apply IH; exact H2]. split; [|apply IH; exact H2].
  intros e' s' Hin. apply filter_In in Hin. apply H1. apply Hin.
Qed.

Lemma epoch_from_filter p a c o : (forall e s, In (e, s) c -> p (e, s) = false -> o < s) ->
  epoch_from a (filter p c) o = epoch_from a c o.
Proof.
  revert a. induction c as [|[e s] r IH]; intros a H; [reflexivity|]. cbn [filter].
  assert (Hr : forall e0 s0, In (e0, s0) r -> p (e0, s0) = false -> o < s0) by (intros e0 s0 Hin; apply H; right; exact Hin).
  rewrite (epoch_from_cons a e s r). destruct (p (e, s)) eqn:Ep; [rewrite epoch_from_cons; apply IH; exact Hr|].
  specialize (H e s (or_introl eq_refl) Ep). destruct (Z.leb_spec s o) as [Hle|_]; [clear - H Hle; lia|apply IH; exact Hr].
Qed.

Lemma clear_latest_sorted c o : csorted c -> csorted (cache_clear_latest c o).
Proof. intros Hs. unfold cache_clear_latest. destruct (cache_latest_off c <? o); [exact Hs|apply csorted_filter; exact Hs]. Qed.

Lemma clear_latest_bound c o : csorted c -> cbound (cache_clear_latest c o) o.
Proof.
  intros Hs e s Hin. unfold cache_clear_latest in Hin. destruct (Z.ltb_spec (cache_latest_off c) o).
  - destruct (csorted_latest c e s Hs Hin). lia.
  - apply filter_In in Hin. destruct Hin as [_ Hlt]. cbn [snd] in Hlt. lia.
Qed.

Lemma epoch_at_clear_latest c o x : x < o -> epoch_at (cache_clear_latest c o) x = epoch_at c x.
Proof.
  intros Hx. unfold cache_clear_latest. destruct (cache_latest_off c <? o); [reflexivity|].
  rewrite !epoch_at_from. apply epoch_from_filter. intros e s _ Hp. cbn [snd] in Hp. lia.
Qed.

Lemma clear_latest_match c o rs : cmatch c rs -> (forall x, In x rs -> r_off x < o) -> cmatch (cache_clear_latest c o) rs.
Proof. intros Hm Hlt. apply (cmatch_ext c); [|exact Hm]. intros x Hx. apply epoch_at_clear_latest, Hlt, Hx. Qed.

Lemma csorted_split c o : csorted c ->
  exists c1 c2, c = c1 ++ c2 /\ (forall e s, In (e, s) c1 -> s < o) /\ (forall e s, In (e, s) c2 -> o <= s).
Proof.
  induction c as [|[e s] r IH]; intros Hs; [exists [], []; split; [reflexivity|split; intros ? ? []]|].
  destruct Hs as [H1 H2]. destruct (Z.lt_ge_cases s o) as [Hlt|Hge].
  - destruct (IH H2) as (c1 & c2 & -> & A & B). exists ((e, s) :: c1), c2. split; [reflexivity|split; [|exact B]].
    intros e' s' [[= <- <-]|Hin]; [exact Hlt|exact (A e' s' Hin)].
  - exists [], ((e, s) :: r). split; [reflexivity|split; [intros ? ? []|]].
    intros e' s' [[= <- <-]|Hin]; [exact Hge|exact (Z.le_trans _ _ _ Hge (proj2 (H1 e' s' Hin)))].
Qed.

(* on such a split ClearEarliest drops c1 and, unless c2 starts at o already, keeps the last epoch of c1 with start o *)
Lemma clear_earliest_split c1 c2 o : (forall e s, In (e, s) c1 -> s < o) -> (forall e s, In (e, s) c2 -> o <= s) ->
  cache_clear_earliest (c1 ++ c2) o =
  match rev c1 with
  | [] => c2
  | (le, _) :: _ => if (o <? cache_earliest_off c2) || (match c2 with [] => true | _ => false end) then (le, o) :: c2 else c2
  end.
Proof.
  intros A B.
  assert (F : filter (fun e : N * Z => snd e <? o) (c1 ++ c2) = c1).
  { rewrite filter_app, filter_all_true, filter_false; [apply app_nil_r| |].
    - apply Forall_forall. intros [e s] Hin. specialize (B e s Hin). cbn [snd]. lia.
    - intros [e s] Hin. specialize (A e s Hin). cbn [snd]. lia. }
  unfold cache_clear_earliest. rewrite F, skipn_app_exact.
  destruct c1 as [|[e s] t]; [destruct (o <=? _); reflexivity|].
  specialize (A e s (or_introl eq_refl)). cbn [app cache_earliest_off snd rev]. destruct (Z.leb_spec o s) as [Hle|_]; [clear - A Hle; lia|]. destruct (rev t); reflexivity.
Qed.

Lemma epoch_at_clear_earliest c o x : csorted c -> o <= x -> epoch_at (cache_clear_earliest c o) x = epoch_at c x.
Proof.
  intros Hs Hx. destruct (csorted_split c o Hs) as (c1 & c2 & -> & A & B). rewrite (clear_earliest_split c1 c2 o A B).
  destruct c1 as [|[le lo] c1 _] using rev_ind; [reflexivity|]. rewrite rev_unit.
  assert (Hc : epoch_at ((c1 ++ [(le, lo)]) ++ c2) x = epoch_from le c2 x).
  { rewrite epoch_at_from, epoch_from_app, <- epoch_at_from, epoch_at_snoc. specialize (A le lo (in_elt _ _ _)).
    destruct (Z.leb_spec lo x) as [_|Hlt]; [reflexivity|clear - A Hx Hlt; lia]. }
  assert (Hk : epoch_at ((le, o) :: c2) x = epoch_from le c2 x).
  { rewrite epoch_at_from, epoch_from_cons. destruct (Z.leb_spec o x) as [_|Hlt]; [reflexivity|clear - Hx Hlt; lia]. }
  rewrite Hc. destruct c2 as [|[e2 s2] t2]; [rewrite orb_true_r; exact Hk|].
  cbn [cache_earliest_off snd]. rewrite orb_false_r. destruct (Z.ltb_spec o s2) as [_|Hso]; [exact Hk|].
  rewrite epoch_at_from, !epoch_from_cons. destruct (Z.leb_spec s2 x) as [_|Hlt]; [reflexivity|clear - Hso Hx Hlt; lia].
Qed.

Lemma clear_earliest_sorted c o : csorted c -> csorted (cache_clear_earliest c o).
Proof.
  intros Hs. destruct (csorted_split c o Hs) as (c1 & c2 & -> & A & B). rewrite (clear_earliest_split c1 c2 o A B).
  apply csorted_app in Hs. destruct Hs as (_ & H2 & X).
  destruct c1 as [|[le lo] c1 _] using rev_ind; [exact H2|]. rewrite rev_unit. destruct (_ || _); [|exact H2].
  split; [|exact H2]. intros e' s' Hin. split; [apply (X le lo e' s' (in_elt _ _ _) Hin)|apply (B e' s' Hin)].
Qed.

Lemma clear_earliest_bound c o n : csorted c -> cbound c n -> o <= n -> cbound (cache_clear_earliest c o) n.
Proof.
  intros Hs Hb Hon. destruct (csorted_split c o Hs) as (c1 & c2 & -> & A & B). rewrite (clear_earliest_split c1 c2 o A B).
  assert (Hb2 : cbound c2 n) by (intros e s Hin; apply (Hb e s), in_or_app; right; exact Hin).
  destruct (rev c1) as [|[le lo] t]; [exact Hb2|]. destruct (_ || _); [|exact Hb2].
  intros e s [[= <- <-]|Hin]; [exact Hon|exact (Hb2 e s Hin)].
Qed.

Lemma clear_earliest_match c o rs : csorted c -> cmatch c rs -> (forall x, In x rs -> o <= r_off x) -> cmatch (cache_clear_earliest c o) rs.
Proof. intros Hs Hm Hge. apply (cmatch_ext c); [|exact Hm]. intros x Hx. apply epoch_at_clear_earliest; [exact Hs|exact (Hge x Hx)]. Qed.

Lemma epoch_at_le c o b : (forall e s, In (e, s) c -> (e <= b)%N) -> (epoch_at c o <= b)%N.
Proof.
  induction c as [|[e s] c IH] using rev_ind; intros H; [apply N.le_0_l|]. rewrite epoch_at_snoc.
  destruct (s <=? o); [apply (H e s), in_elt|apply IH; intros e' s' Hin; apply (H e' s'), in_or_app; left; exact Hin].
Qed.

Lemma epoch_at_mono c o1 o2 : csorted c -> o1 <= o2 -> (epoch_at c o1 <= epoch_at c o2)%N.
Proof.
  intros Hs Hle. induction c as [|[e s] c IH] using rev_ind; [apply N.le_refl|].
  apply csorted_app in Hs. destruct Hs as (Hc & _ & Hlt). rewrite !epoch_at_snoc.
  destruct (Z.leb_spec s o1) as [L1|_], (Z.leb_spec s o2) as [_|L2]; [apply N.le_refl|exfalso; clear - Hle L1 L2; lia| |apply IH; exact Hc].
  apply epoch_at_le. intros e' s' Hin. apply N.lt_le_incl. apply (Hlt e' s' e s Hin). left. reflexivity.
Qed.

Lemma match_mono c rs : csorted c -> cmatch c rs -> forall lo a, sorted_from lo rs -> (forall x, In x rs -> (a <= r_ep x)%N) -> ep_mono a rs.
Proof.
  intros Hs Hm. induction rs as [|r t IH]; intros lo a Hsort Ha; [exact I|]. destruct Hsort as [S1 S2]. split; [apply Ha; left; reflexivity|].
  apply (IH (fun x Hx => Hm x (or_intror Hx)) (r_off r + 1) _ S2).
  intros x Hx. pose proof (proj1 (Forall_forall _ _) (sorted_ge _ _ S2) x Hx) as HF. cbn beta in HF.
  rewrite <- (Hm r (or_introl eq_refl)), <- (Hm x (or_intror Hx)). apply epoch_at_mono; [exact Hs|clear - HF; lia].
Qed.

Fixpoint bases_lt (lo : Z) (segs : list seg) : Prop :=
  match segs with
  | [] => True
  | s :: r => lo < s_base s /\ bases_lt (s_base s) r
  end.

Record WF (segs : list seg) : Prop := {
  wf_bases : bases_lt (-1) segs;
  wf_sorted : forall s, In s segs -> sorted_from (s_base s) (s_recs s);
  wf_below : forall s1 s2, In s1 segs -> In s2 segs -> s_base s1 < s_base s2 -> forall x, In x (s_recs s1) -> r_off x < s_base s2 }.

Lemma bases_lt_all lo segs : bases_lt lo segs -> forall s, In s segs -> lo < s_base s.
Proof.
  revert lo. induction segs as [|x t IH]; intros lo H s Hin; [destruct Hin|]. destruct H as [H1 H2].
  destruct Hin as [<-|Hin]; [exact H1|]. specialize (IH _ H2 s Hin). lia.
Qed.

Lemma bases_lt_weaken lo lo' segs : lo' <= lo -> bases_lt lo segs -> bases_lt lo' segs.
Proof. destruct segs as [|x t]; [auto|]. intros H [H1 H2]. split; [lia|exact H2]. Qed.

Lemma bases_lt_app lo a b : bases_lt lo (a ++ b) <->
  bases_lt lo a /\ bases_lt lo b /\ forall s1 s2, In s1 a -> In s2 b -> s_base s1 < s_base s2.
Proof.
  revert lo. induction a as [|x t IH]; intros lo; cbn [app bases_lt].
  - split; [intros H; split; [exact I|split; [exact H|intros ? ? []]]|intros (_ & H & _); exact H].
  - split.
    + intros [H1 H2]. destruct (proj1 (IH _) H2) as (I1 & I2 & I3). split; [split; assumption|].
      split; [apply (bases_lt_weaken (s_base x)); [lia|exact I2]|].
      intros s1 s2 [<-|Hin] Hb; [exact (bases_lt_all _ _ I2 s2 Hb)|exact (I3 s1 s2 Hin Hb)].
    + intros ([H1 H2] & Hb & Hab). split; [exact H1|]. apply IH. split; [exact H2|]. split; [|intros s1 s2 Hi; apply Hab; right; exact Hi].
      destruct b as [|y u]; [exact I|]. split; [apply Hab; left; reflexivity|apply Hb].
Qed.

Lemma bases_lt_mid lo a x b : bases_lt lo (a ++ x :: b) ->
  (forall s, In s a -> s_base s < s_base x) /\ (forall s, In s b -> s_base x < s_base s).
Proof.
  intros B. apply bases_lt_app in B. destruct B as (_ & [_ Bx] & Hab).
  split; [intros s Hs; apply (Hab s x Hs); left; reflexivity|exact (bases_lt_all _ _ Bx)].
Qed.

Lemma bases_distinct front x rest lo : bases_lt lo (map m_seg (front ++ x :: rest)) ->
  (forall m, In m front -> m_base m <> m_base x) /\ (forall m, In m rest -> m_base m <> m_base x).
Proof.
  rewrite map_app. intros B. destruct (bases_lt_mid _ _ _ _ B) as [Ha Hb].
  split; intros m Hm; [specialize (Ha _ (in_map m_seg _ _ Hm))|specialize (Hb _ (in_map m_seg _ _ Hm))]; unfold m_base; lia.
Qed.

Lemma WF_app a b : WF (a ++ b) <-> WF a /\ WF b /\
  forall s1 s2, In s1 a -> In s2 b -> s_base s1 < s_base s2 /\ forall x, In x (s_recs s1) -> r_off x < s_base s2.
Proof.
  split.
  - intros [B S L]. destruct (proj1 (bases_lt_app _ _ _) B) as (Ba & Bb & Hab). split; [|split].
    + split; [exact Ba|intros s Hs; apply S, in_or_app; left; exact Hs|].
      intros s1 s2 H1 H2. apply L; apply in_or_app; left; assumption.
    + split; [exact Bb|intros s Hs; apply S, in_or_app; right; exact Hs|].
      intros s1 s2 H1 H2. apply L; apply in_or_app; right; assumption.
    + intros s1 s2 H1 H2. split; [exact (Hab s1 s2 H1 H2)|].
      apply L; [apply in_or_app; left; exact H1|apply in_or_app; right; exact H2|exact (Hab s1 s2 H1 H2)].
  - intros ([Ba Sa La] & [Bb Sb Lb] & Hab). split.
    + apply bases_lt_app. split; [exact Ba|split; [exact Bb|]]. intros s1 s2 H1 H2. apply (Hab s1 s2 H1 H2).
    + intros s Hs. apply in_app_or in Hs. destruct Hs as [Hs|Hs]; [exact (Sa s Hs)|exact (Sb s Hs)].
    + intros s1 s2 H1 H2 Hlt. apply in_app_or in H1. apply in_app_or in H2. destruct H1 as [H1|H1], H2 as [H2|H2].
      * exact (La s1 s2 H1 H2 Hlt).
      * apply (Hab s1 s2 H1 H2).
      * destruct (Z.lt_asymm _ _ Hlt (proj1 (Hab s2 s1 H2 H1))).
      * exact (Lb s1 s2 H1 H2 Hlt).
Qed.

Lemma WF_single s : 0 <= s_base s -> sorted_from (s_base s) (s_recs s) -> WF [s].
Proof.
  intros H0 Hs. split.
  - cbn. lia.
  - intros s' [<-|[]]. exact Hs.
  - intros s1 s2 [<-|[]] [<-|[]]. lia.
Qed.

Lemma WF_single0 : WF [mkSeg 0 []].
Proof. apply WF_single; [cbn; lia|exact I]. Qed.

Lemma WF_base_nonneg segs s : WF segs -> In s segs -> 0 <= s_base s.
Proof. intros Hw Hin. pose proof (bases_lt_all _ _ (wf_bases _ Hw) s Hin). lia. Qed.

Lemma WF_last_recs pre a rs : WF (pre ++ [a]) -> sorted_from (s_base a) rs -> WF (pre ++ [mkSeg (s_base a) rs]).
Proof.
  intros Hw Hs. pose proof (WF_base_nonneg _ a Hw (in_elt _ _ _)) as H0.
  apply WF_app in Hw. destruct Hw as (Hp & _ & Hab). apply WF_app. split; [exact Hp|]. split; [apply WF_single; assumption|].
  intros s1 s2 H1 [<-|[]]. apply (Hab s1 a H1). left. reflexivity.
Qed.

Lemma WF_add_empty segs nb : WF segs -> 0 <= nb -> (forall s, In s segs -> s_base s < nb /\ forall x, In x (s_recs s) -> r_off x < nb) ->
  WF (segs ++ [mkSeg nb []]).
Proof.
  intros Hw H0 Hn. apply WF_app. split; [exact Hw|]. split; [apply WF_single; [exact H0|exact I]|].
  intros s1 s2 H1 [<-|[]]. exact (Hn s1 H1).
Qed.

Lemma WF_segs_wf_aux segs : forall lo, 0 <= lo -> (forall s, In s segs -> lo <= s_base s) -> WF segs -> segs_wf lo segs.
Proof.
  induction segs as [|s t IH]; intros lo Hlo Hge Hw; [exact I|].
  pose proof Hw as [B S L]. cbn [segs_wf]. split; [apply Hge; left; reflexivity|]. split; [apply S; left; reflexivity|].
  assert (H0 : 0 <= s_base s) by exact (Z.le_trans _ _ _ Hlo (Hge s (or_introl eq_refl))).
  apply IH; [exact (Z.le_trans _ _ _ H0 (s_next_ge s H0 (S s (or_introl eq_refl))))| |apply (WF_app [s] t), Hw].
  intros s' Hin. destruct B as [_ B2]. pose proof (bases_lt_all _ _ B2 s' Hin) as Hlt.
  apply (next_after_le (s_base s)); [exact (Z.lt_le_incl _ _ Hlt)|].
  intros x Hx. apply (L s s'); [left; reflexivity|right; exact Hin|exact Hlt|exact Hx].
Qed.

Lemma WF_segs_wf segs : WF segs -> segs_wf 0 segs.
Proof.
  intros Hw. apply WF_segs_wf_aux; [lia| |exact Hw]. intros s Hin. exact (WF_base_nonneg _ s Hw Hin).
Qed.

Lemma WF_range segs s x : WF segs -> In s segs -> In x (s_recs s) -> s_base s <= r_off x < s_next s.
Proof.
  intros Hw Hs Hx. pose proof (seg_all_lt_next s (WF_base_nonneg _ s Hw Hs) (wf_sorted _ Hw s Hs)) as HF.
  rewrite Forall_forall in HF. exact (HF x Hx).
Qed.

Definition flatc (segs : list seg) : list rec := concat (map s_recs segs).

Definition mrecs (l : list mseg) : list rec := concat (map m_recs l).

Lemma mrecs_flat l : mrecs l = flat (map m_seg l).
Proof. unfold mrecs, flat. rewrite map_map. reflexivity. Qed.

Lemma content_flat d : content d = flat (segs_of d).
Proof. exact (mrecs_flat (d_segs d)). Qed.

Lemma in_mrecs l x : In x (mrecs l) <-> exists m, In m l /\ In x (m_recs m).
Proof. apply in_concat_map. Qed.

Lemma mrecs_app a b : mrecs (a ++ b) = mrecs a ++ mrecs b.
Proof. unfold mrecs. rewrite map_app. apply concat_app. Qed.

Lemma segs_content d d' : segs_of d' = segs_of d -> content d' = content d.
Proof. intros Es. rewrite !content_flat, Es. reflexivity. Qed.

Lemma WF_flat_range segs x : WF segs -> In x (flat segs) -> 0 <= r_off x < chain_next 0 segs.
Proof.
  intros Hw Hx. destruct (flat_sorted 0 segs (Z.le_refl 0) (WF_segs_wf _ Hw)) as [Hs Hn].
  pose proof (sorted_all_lt 0 _ (Z.le_refl 0) Hs) as HF. rewrite Forall_forall in HF. specialize (HF x Hx). lia.
Qed.

Lemma WF_all_below_next segs last : WF (segs ++ [last]) -> forall x, In x (flat (segs ++ [last])) -> r_off x < s_next last.
Proof. intros Hw x Hx. pose proof (WF_flat_range _ x Hw Hx) as H. rewrite chain_next_app in H. apply H. Qed.

Lemma WF_first_le s t x : WF (s :: t) -> In x (flat (s :: t)) -> s_first s <= r_off x.
Proof.
  intros Hw Hx. pose proof (WF_flat_range _ x Hw Hx) as H0.
  destruct (flat_sorted 0 _ (Z.le_refl 0) (WF_segs_wf _ Hw)) as [Hs _].
  unfold s_first. unfold flat in Hs, Hx. cbn [map concat] in Hs, Hx. destruct (s_recs s) as [|r0 t0]; [lia|].
  destruct Hs as [_ Hs]. destruct Hx as [<-|Hx]; [lia|]. pose proof (proj1 (Forall_forall _ _) (sorted_ge _ _ Hs) x Hx) as Hge. cbn beta in Hge. lia.
Qed.

Lemma WF_first_base sg rest x : WF (sg :: rest) -> In x (flat (sg :: rest)) -> s_base sg <= r_off x.
Proof.
  intros Hw Hx. apply in_concat_map in Hx. destruct Hx as (s' & Hs & Hx). pose proof (WF_range _ _ x Hw Hs Hx). destruct Hs as [<-|Hs]; [lia|].
  pose proof (bases_lt_all _ _ (proj2 (wf_bases _ Hw)) s' Hs). lia.
Qed.

(* A state between two operations. s_hw is the HW in memory; the checkpoint file d_hw is written from time
   to time and may be behind it (g_hw). *)
Record Good (s : st) : Prop := {
  g_ne : d_segs (s_disk s) <> [];
  g_wf : WF (segs_of (s_disk s));
  g_idx : forall m, In m (d_segs (s_disk s)) -> m_idx m = Some (m_recs m);
  g_orph : d_orph (s_disk s) = [];
  g_csorted : csorted (d_ep (s_disk s));
  g_cbound : cbound (d_ep (s_disk s)) (m_next (d_active (s_disk s)));
  g_cmatch : cmatch (d_ep (s_disk s)) (content (s_disk s));
  g_hw : d_hw (s_disk s) <= s_hw s }.

(* what a crash may leave: every index is either right or visibly not covering its log *)
Definition fixable (m : mseg) : Prop := m_fi m = m_recs m \/ fsize (m_fi m) <> fsize (m_recs m).

(* A directory in the middle of an operation, which is what a crash leaves. Of Good it keeps what holds at
   every point of every script; the indexes need only be fixable, and orphans, an empty segment list and
   cache entries beyond the log end are allowed. H is the HW in memory, which bounds the checkpoint. *)
Record Mid (H : Z) (d : disk) : Prop := {
  mi_fix : forall m, In m (d_segs d) -> fixable m;
  mi_wf : WF (segs_of d);
  mi_csorted : csorted (d_ep d);
  mi_cmatch : cmatch (d_ep d) (content d);
  mi_hw : d_hw d <= H }.

Lemma idx_fixable m : m_idx m = Some (m_recs m) -> fixable m.
Proof. intros E. left. unfold m_fi. rewrite E. reflexivity. Qed.

Lemma fixable_shrunk b nf fi : subseq nf fi -> fixable (mkM (mkSeg b nf) (Some fi)).
Proof. intros Hs. destruct (subseq_fsize _ _ Hs) as [->|Hlt]; [left; reflexivity|right]. unfold m_fi, m_recs. cbn [m_idx m_seg s_recs]. lia. Qed.

(* an index that is absent, or lists a proper part of its log, is visibly short of it: frames have positive size *)
Lemma prefix_fixable sg a tl : a ++ tl = s_recs sg -> fixable (mkM sg (Some a)).
Proof.
  intros E. unfold fixable, m_fi, m_recs. cbn [m_idx m_seg]. rewrite <- E. destruct tl as [|x t]; [left; symmetry; apply app_nil_r|right].
  rewrite fsize_app. pose proof (fsize_pos_ne (x :: t) ltac:(discriminate)). lia.
Qed.

Lemma none_fixable sg : fixable (mkM sg None).
Proof. exact (prefix_fixable sg [] _ eq_refl). Qed.

Lemma fix_idx_fixable m : fixable m -> fix_idx fixed m = mkM (m_seg m) (Some (m_recs m)).
Proof.
  intros [E|N]; unfold fix_idx; cbn [v_rebuild fixed andb].
  - rewrite E. rewrite Z.eqb_refl. cbn [negb]. reflexivity.
  - destruct (Z.eqb_spec (fsize (m_fi m)) (fsize (m_recs m))); [contradiction|reflexivity].
Qed.

Lemma good_mid s : Good s -> Mid (s_hw s) (s_disk s).
Proof.
  intros G. split; [|apply (g_wf _ G)|apply (g_csorted _ G)|apply (g_cmatch _ G)|apply (g_hw _ G)].
  intros m Hin. apply idx_fixable, (g_idx _ G m Hin).
Qed.

Lemma Mid_same_segs H d d' : Mid H d -> segs_of d' = segs_of d -> (forall m, In m (d_segs d') -> fixable m) ->
  d_ep d' = d_ep d -> d_hw d' = d_hw d -> Mid H d'.
Proof.
  intros [_ Hw Hs Hm Hh] Es Hf Ee Eh. split; [exact Hf|rewrite Es; exact Hw|rewrite Ee; exact Hs| |rewrite Eh; exact Hh].
  rewrite Ee, (segs_content _ _ Es). exact Hm.
Qed.

Lemma mid_good H d : Mid H d -> d_segs d <> [] -> (forall m, In m (d_segs d) -> m_idx m = Some (m_recs m)) -> d_orph d = [] ->
  cbound (d_ep d) (m_next (d_active d)) -> Good (mkSt d H).
Proof.
  intros M Hne Hidx Ho Hb. split; cbn [s_disk s_hw]; try assumption; apply M.
Qed.

Lemma m_next_consistent m : m_idx m = Some (m_recs m) -> 0 <= m_base m -> sorted_from (m_base m) (m_recs m) ->
  m_next m = s_next (m_seg m).
Proof.
  intros E H0 Hs. unfold m_next, m_fi. rewrite E. unfold s_next, s_last. fold (m_recs m). fold (m_base m).
  destruct (m_recs m) as [|r t] using rev_ind; [reflexivity|].
  rewrite rev_app_distr, last_off_snoc. cbn [rev app].
  pose proof (sorted_last_ge (m_base m) (t ++ [r]) Hs ltac:(destruct t; discriminate)) as Hl. rewrite last_off_snoc in Hl.
  destruct (Z.eqb_spec (r_off r) (-1)); [lia|reflexivity].
Qed.

(* commitlog.New on segments whose indexes are right: the cache trimmed at both ends fits the log *)
Lemma trim_good segs scr hw c : segs <> [] -> WF (map m_seg segs) -> (forall m, In m segs -> m_idx m = Some (m_recs m)) ->
  csorted c -> cmatch c (concat (map m_recs segs)) ->
  let c1 := cache_clear_latest c (m_next (last segs dummy_m)) in
  let old := match segs with [] => -1 | m :: _ => match m_fi m with [] => -1 | r :: _ => r_off r end end in
  Good (mkSt (mkDisk segs [] scr hw (cache_clear_earliest c1 old)) hw).
Proof.
  intros Hne Hw Hidx Hcs Hcm c1 old.
  pose proof (mrecs_flat segs : concat (map m_recs segs) = _) as Hfl.
  rewrite Hfl in *.
  destruct (exists_last Hne) as (l & a & E). assert (Ea : last segs dummy_m = a) by (rewrite E; apply last_last).
  assert (Ha : In a segs) by (rewrite E; apply in_elt). unfold c1. rewrite Ea.
  assert (Han : m_next a = s_next (m_seg a)).
  { apply m_next_consistent; [exact (Hidx a Ha)|apply (WF_base_nonneg _ _ Hw), in_map, Ha|apply (wf_sorted _ Hw), in_map, Ha]. }
  assert (Hbelow : forall x, In x (flat (map m_seg segs)) -> r_off x < m_next a).
  { rewrite Han. revert Hw. rewrite E, map_app. intros Hw. exact (WF_all_below_next _ _ Hw). }
  assert (Hold : (forall x, In x (flat (map m_seg segs)) -> old <= r_off x) /\ old <= m_next a).
  { unfold old. destruct segs as [|m t]; [contradiction|].
    unfold m_fi. rewrite (Hidx m (or_introl eq_refl)). split; [intros x; exact (WF_first_le (m_seg m) (map m_seg t) x Hw)|].
    destruct (m_recs m) as [|r0 t0] eqn:Er.
    - rewrite Han. pose proof (WF_base_nonneg _ _ Hw (in_map m_seg _ _ Ha)) as B0. pose proof (s_next_ge _ B0 (wf_sorted _ Hw _ (in_map m_seg _ _ Ha))) as B1. clear - B0 B1. lia.
    - apply Z.lt_le_incl, Hbelow. unfold flat. cbn [map concat]. apply in_or_app. left. unfold m_recs in Er. rewrite Er. left. reflexivity. }
  destruct Hold as [Hold1 Hold2].
  pose proof (clear_latest_sorted c (m_next a) Hcs) as Hs1. pose proof (clear_latest_match c (m_next a) _ Hcm Hbelow) as Hm1.
  split; cbn [s_disk s_hw d_segs d_orph d_ep d_hw]; [exact Hne|exact Hw|exact Hidx|reflexivity| | | |apply Z.le_refl].
  - apply clear_earliest_sorted. exact Hs1.
  - unfold d_active. cbn [d_segs]. rewrite Ea.
    apply clear_earliest_bound; [exact Hs1|apply clear_latest_bound; exact Hcs|exact Hold2].
  - unfold content. cbn [d_segs]. rewrite Hfl. apply clear_earliest_match; [exact Hs1|exact Hm1|exact Hold1].
Qed.

(* commitlog.New on whatever a crash leaves: it rebuilds exactly the indexes that are not right, drops the
   orphans and trims the cache to the log, so the result is Good, with the checkpoint as its HW, and holds
   the records it found. A crash proof therefore only has to show Mid of its images. *)
Theorem mid_recover H d : Mid H d ->
  let r := recover fixed d in
  Good (mkSt r (d_hw r)) /\ content r = content d /\ d_hw r <= H /\ d_scr r = d_scr d /\
  (d_segs d <> [] -> segs_of r = segs_of d).
Proof.
  intros [Hfix Hwf Hcs Hcm Hhw]. cbn zeta. unfold recover, content, segs_of in *.
  destruct (d_segs d) as [|m t] eqn:E.
  - split; [|split; [reflexivity|split; [exact Hhw|split; [reflexivity|intros N; contradiction]]]].
    apply (trim_good [dummy_m]); [discriminate|exact WF_single0|intros m [<-|[]]; reflexivity|exact Hcs|intros x []].
  - rewrite (map_ext_in _ _ _ (fun m0 Hm0 => fix_idx_fixable m0 (Hfix m0 Hm0))).
    set (segs := map (fun m0 => mkM (m_seg m0) (Some (m_recs m0))) (m :: t)).
    assert (Es : map m_seg segs = map m_seg (m :: t)) by (unfold segs; rewrite map_map; reflexivity).
    assert (Ec : concat (map m_recs segs) = concat (map m_recs (m :: t))) by (unfold segs; rewrite map_map; reflexivity).
    split; [|split; [exact Ec|split; [exact Hhw|split; [reflexivity|intros _; exact Es]]]].
    apply (trim_good segs); [discriminate|rewrite Es; exact Hwf| |exact Hcs|rewrite Ec; exact Hcm].
    intros m0 Hin. apply in_map_iff in Hin. destruct Hin as (m1 & <- & _). reflexivity.
Qed.
