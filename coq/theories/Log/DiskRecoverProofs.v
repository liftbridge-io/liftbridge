(* A crash inside commitlog.New (the model is Log/DiskRecover.v): after any prefix of the recovery's
   effects the directory is again a crash image (`Mid`) with the same records, so the next
   commitlog.New recovers a good log from it -- however many recoveries are cut short in a row. *)
From LB Require Import Base.Prelude Log.Model Log.Retention Log.Compact Log.Proofs Log.Refine Api.Range Log.Check Log.Disk Log.DiskBase Log.DiskProofs
  Log.DiskBlocks Log.DiskTrunc Log.DiskClean Log.DiskCleanOp Log.DiskSafety Log.DiskTear Log.DiskTorn Log.DiskRecover.
From Coq Require Import ZifyBool.
Open Scope Z_scope.

Lemma ritem_ins_in x y l : In x (ritem_ins y l) -> x = y \/ In x l.
Proof.
  induction l as [|z t IH]; cbn [ritem_ins]; [intros [<-|[]]; left; reflexivity|].
  destruct (ritem_base y <? ritem_base z); [intros [<-|H]; [left; reflexivity|right; exact H]|].
  intros [<-|H]; [right; left; reflexivity|]. destruct (IH H) as [->|H']; [left; reflexivity|right; right; exact H'].
Qed.

Lemma ritems_in d x : In x (ritems d) -> (exists b, x = ROrph b) \/ (exists m, x = RSeg m /\ In m (d_segs d)).
Proof.
  unfold ritems. generalize (d_orph d). intros os. induction os as [|y t IH]; cbn [map fold_right].
  - intros H. right. apply in_map_iff in H. destruct H as (m & <- & Hm). exists m. split; [reflexivity|exact Hm].
  - intros H. destruct (ritem_ins_in _ _ _ H) as [->|H']; [left; eexists; reflexivity|apply IH; exact H'].
Qed.

Section RecoverCrash.
  Variable H : Z.
  Variable d : disk.
  Hypothesis M : Mid H d.

  Definition Rr (d' : disk) : Prop := Mid H d' /\ content d' = content d /\ d_hw d' = d_hw d.

  (* phase A: orphan indexes removed, indexes created / rebuilt *)
  Definition Ja (d' : disk) : Prop :=
    segs_of d' = segs_of d /\ d_hw d' = d_hw d /\ d_ep d' = d_ep d /\ forall m', In m' (d_segs d') -> fixable m'.

  Lemma Ja_Rr d' : Ja d' -> Rr d'.
  Proof. intros (Es & Eh & Ee & Hf). exact (conj (Mid_same_segs H d d' M Es Hf Ee Eh) (conj (segs_content _ _ Es) Eh)). Qed.

  Lemma Ja_init : Ja d.
  Proof. repeat split. apply (mi_fix _ _ M). Qed.

  Lemma Ja_remove_idx d' b : Ja d' -> Ja (apply_eff d' (FRemoveIdx (TMain b))).
  Proof.
    intros (Es & Eh & Ee & Hf). cbn [apply_eff mapply]. destruct (seg_get (d_segs d') b) as [m0|].
    - split; [|split; [exact Eh|split; [exact Ee|]]].
      + unfold segs_of. cbn [set_segs d_segs]. rewrite seg_upd_segs by reflexivity. exact Es.
      + intros m' Hin. cbn [set_segs d_segs] in Hin. destruct (seg_upd_in _ _ _ _ Hin) as [Hm|(m1 & _ & ->)]; [apply Hf; exact Hm|apply none_fixable].
    - split; [exact Es|split; [exact Eh|split; [exact Ee|exact Hf]]].
  Qed.

  (* One segment's index is made right while the others stay: with the segment's log fixed, the
     directory is a function St of that index, and every effect of fix_effs is a function on it. *)
  Lemma fix_seq m : In m (d_segs d) -> seq Rr Ja (fix_effs m) Ja.
  Proof.
    intros Hm d' J. pose proof J as (Es & Eh & Ee & Hf).
    apply in_split in Hm. destruct Hm as (f0 & r0 & E0).
    assert (Esp : map m_seg (d_segs d') = map m_seg f0 ++ m_seg m :: map m_seg r0) by (unfold segs_of in Es; rewrite Es, E0, map_app; reflexivity).
    destruct (map_split3 _ _ _ _ _ Esp) as (front & [sg ix] & rest & Ed' & _ & Em & _). cbn [m_seg] in Em. subst sg.
    pose proof (mi_wf _ _ M) as Hw. rewrite <- Es in Hw. unfold segs_of in Hw. rewrite Ed' in Hw.
    destruct (bases_distinct front _ rest (-1) (wf_bases _ Hw)) as [Hfront _].
    set (b := m_base m). set (St := fun X => set_segs d' (front ++ mkM (m_seg m) X :: rest)).
    assert (HJ : forall X, fixable (mkM (m_seg m) X) -> Ja (St X)).
    { intros X HX. unfold St. split; [|split; [exact Eh|split; [exact Ee|]]].
      - rewrite <- Es. unfold segs_of. cbn [set_segs d_segs]. rewrite Ed', !map_app. reflexivity.
      - intros y Hy. cbn [set_segs d_segs] in Hy. apply in_app_or in Hy. destruct Hy as [Hy|[<-|Hy]]; [apply Hf; rewrite Ed'; apply in_or_app; left; exact Hy|exact HX|apply Hf; rewrite Ed'; apply in_or_app; right; right; exact Hy]. }
    assert (HR : forall a tl, a ++ tl = m_recs m -> Rr (St (Some a))) by (intros a tl Ea; apply Ja_Rr, HJ, (prefix_fixable _ _ tl); exact Ea).
    assert (Eeff : forall X, apply_eff (St X) (FCreateIdx (TMain b)) = St (create_opt X) /\ apply_eff (St X) (FRemoveIdx (TMain b)) = St None /\
                             forall rs, apply_eff (St X) (FAppendIdx (TMain b) rs) = St (app_opt X rs)).
    { intros X. unfold St. cbn [apply_eff mapply set_segs d_segs]. change b with (m_base (mkM (m_seg m) X)).
      rewrite seg_get_mid, !seg_upd_mid by exact Hfront. split; [reflexivity|split; [reflexivity|]].
      intros rs. rewrite seg_upd_mid by exact Hfront. reflexivity. }
    assert (Hix : fixable (mkM (m_seg m) ix)) by (apply Hf; rewrite Ed'; apply in_elt).
    enough (Hseq : seq Rr (eq (St ix)) (fix_effs m) Ja).
    { apply Hseq. unfold St. rewrite <- Ed'. destruct d'; reflexivity. }
    unfold fix_effs. fold b. set (rebuild := if _ =? _ then _ else _).
    (* rebuildIndex, from any index: removed, created empty, then one entry per frame of the log *)
    assert (Hrebuild : forall X, fixable (mkM (m_seg m) X) -> seq Rr (eq (St X)) rebuild Ja).
    { intros X HX. unfold rebuild. destruct (fsize (m_fi m) =? fsize (m_recs m)).
      { apply (seq_conseq Rr Ja _ Ja); [intros x <-; exact (HJ X HX)|auto|apply seq_nil; exact Ja_Rr]. }
      cbn [app]. apply seq_step; [exact (Ja_Rr _ (HJ X HX))|]. rewrite (proj1 (proj2 (Eeff X))). apply seq_cons_point.
      apply seq_step; [exact (Ja_Rr _ (HJ None (none_fixable _)))|]. rewrite (proj1 (Eeff None)). apply seq_cons_point. cbn [create_opt].
      apply (seq_conseq Rr (eq (St (Some []))) _ (eq (St (Some ([] ++ m_recs m)))) Ja); [auto|intros x <-; apply HJ, (prefix_fixable _ _ []), app_nil_r|].
      apply (seq_foreach Rr _ (fun dn _ => eq (St (Some dn)))); [|intros x <-; exact (HR _ [] (app_nil_r _))].
      intros dn r t Et. apply seq_step; [exact (HR dn (r :: t) (eq_sym Et))|]. rewrite (proj2 (proj2 (Eeff _))). apply seq_cons_point.
      apply seq_nil. intros x <-. apply (HR _ t). rewrite <- app_assoc. exact (eq_sym Et). }
    (* setupIndex: a missing index file is created first *)
    destruct (m_idx m); cbn [app]; [exact (Hrebuild ix Hix)|].
    apply seq_step; [exact (Ja_Rr _ (HJ ix Hix))|]. rewrite (proj1 (Eeff ix)). apply Hrebuild.
    destruct ix; [exact Hix|exact (prefix_fixable _ [] _ eq_refl)].
  Qed.

  Lemma items_seq : seq Rr Ja (concat (map item_effs (ritems d))) Ja.
  Proof.
    apply (seq_foreach Rr item_effs (fun _ _ => Ja) (ritems d) []); [|intros x; exact (Ja_Rr x)].
    intros dn x t Ex. cbn [app] in Ex. destruct (ritems_in d x ltac:(rewrite Ex; apply in_elt)) as [(b & ->)|(m & -> & Hm)]; cbn [item_effs].
    - apply seq_each; [exact Ja_Rr|]. intros e [<-|[<-|[]]] d' J; [apply Ja_remove_idx; exact J|exact J].
    - apply fix_seq. exact Hm.
  Qed.

  (* phase B: an empty directory gets segment 0 *)
  Definition Jb (d' : disk) : Prop :=
    (d_segs d' = [] \/ exists oi, d_segs d' = [mkM (mkSeg 0 []) oi]) /\ d_hw d' = d_hw d /\ d_ep d' = d_ep d.

  Lemma Jb_Rr d' : d_segs d = [] -> Jb d' -> Rr d'.
  Proof.
    intros E0 (Hs & Eh & Ee). assert (Ec0 : content d = []) by (unfold content; rewrite E0; reflexivity).
    assert (Ec : content d' = []) by (unfold content; destruct Hs as [->|(oi & ->)]; reflexivity).
    split; [|split; [rewrite Ec, Ec0; reflexivity|exact Eh]]. split.
    - intros m' Hin. destruct Hs as [Hs|(oi & Hs)]; rewrite Hs in Hin; [destruct Hin|]. destruct Hin as [<-|[]].
      destruct oi; [apply fixable_shrunk, subseq_nil|apply none_fixable].
    - unfold segs_of. destruct Hs as [->|(oi & ->)]; cbn [map m_seg]; [|exact WF_single0].
      split; [exact I|intros s0 []|intros s1 s2 []].
    - rewrite Ee. apply (mi_csorted _ _ M).
    - rewrite Ec. intros x [].
    - rewrite Eh. apply (mi_hw _ _ M).
  Qed.

  Lemma create_seq : d_segs d = [] -> seq Rr Jb [FCreateLog (TMain 0); FPoint PSegLogCreated; FCreateIdx (TMain 0)] Jb.
  Proof.
    intros E0. apply seq_each; [intros d' Hd; apply (Jb_Rr d' E0 Hd)|].
    intros e [<-|[<-|[<-|[]]]] d' (Hs & Eh & Ee); [|split; [exact Hs|split; assumption]|].
    - cbn [apply_eff mapply]. destruct Hs as [Hs|(oi & Hs)]; rewrite Hs; cbn [seg_get].
      + split; [right; eexists; cbn [with_main d_segs seg_ins]; reflexivity|split; [exact Eh|exact Ee]].
      + (* segment 0 is there already: seg_get, which compares bases, finds it *)
        change (m_base (mkM (mkSeg 0 []) oi) =? 0) with true. cbn iota. split; [right; exists oi; exact Hs|split; assumption].
    - cbn [apply_eff mapply]. destruct Hs as [Hs|(oi & Hs)]; rewrite Hs; cbn [seg_get].
      + destruct (orph_get (d_orph d') 0); (split; [left; cbn [with_main d_segs]; first [exact Hs|reflexivity]|split; [exact Eh|exact Ee]]).
      + change (m_base (mkM (mkSeg 0 []) oi) =? 0) with true. cbn iota.
        split; [right; eexists; cbn [set_segs d_segs seg_upd]; change (m_base (mkM (mkSeg 0 []) oi) =? 0) with true; cbn iota; reflexivity|split; assumption].
  Qed.

  (* phase C: the epoch checkpoint is trimmed; everything else stays *)
  Lemma Rr_epochs d' c : Rr d' -> csorted c -> cmatch c (content d) -> Rr (apply_eff d' (FEpochs c)).
  Proof.
    intros ([Hf Hw _ _ Hhw] & Ec & Eh) Hc1 Hc2. rewrite <- Ec in Hc2. split; [|split; [exact Ec|exact Eh]].
    split; [exact Hf|exact Hw|exact Hc1|exact Hc2|exact Hhw].
  Qed.

  (* the two caches commitlog.New writes fit the records *)
  Lemma trimmed_caches : let r := recover fixed d in
    (csorted (cache_clear_latest (d_ep d) (m_next (d_active r))) /\ cmatch (cache_clear_latest (d_ep d) (m_next (d_active r))) (content d)) /\
    (csorted (d_ep r) /\ cmatch (d_ep r) (content d)).
  Proof.
    cbn zeta. destruct (mid_recover _ _ M) as (GR & Hcont & _ & _ & _). cbn zeta in GR, Hcont.
    set (r := recover fixed d) in *. split.
    - split; [apply clear_latest_sorted; apply (mi_csorted _ _ M)|].
      apply clear_latest_match; [apply (mi_cmatch _ _ M)|]. rewrite <- Hcont. exact (proj2 (proj2 (proj2 (good_cfit _ GR)))).
    - split; [apply (g_csorted _ GR)|]. rewrite <- Hcont. apply (g_cmatch _ GR).
  Qed.

  (* After ANY prefix of the effects of commitlog.New the directory is a crash image with the same
     records and the same HW checkpoint. *)
  Theorem recover_prefix j : Rr (run_effs d (firstn j (recover_effs d))).
  Proof.
    destruct trimmed_caches as [[S1 M1] [S2 M2]]. cbn zeta in S1, M1, S2, M2.
    assert (Hep : forall (b : bool) c, csorted c -> cmatch c (content d) -> seq Rr Rr (if b then [] else [FEpochs c]) Rr).
    { intros b c Hc1 Hc2. destruct b; [apply seq_nil; auto|].
      apply seq_one; [auto|intros x Jx; apply Rr_epochs; assumption|auto]. }
    assert (Hseq : seq Rr (fun x => x = d) (recover_effs d) (fun _ => True)).
    { unfold recover_effs.
      apply (seq_app Rr _ _ Ja); [eapply seq_conseq; [intros x ->; exact Ja_init|intros x Hx; exact Hx|exact items_seq]|].
      apply (seq_app Rr _ _ Rr).
      { destruct (d_segs d) as [|m0 t0] eqn:E0.
        - eapply seq_conseq; [|intros x; exact (Jb_Rr x E0)|apply (create_seq E0)].
          intros x (Es & Eh & Ee & _). split; [left; unfold segs_of in Es; rewrite E0 in Es; destruct (d_segs x); [reflexivity|discriminate]|split; assumption].
        - eapply seq_conseq; [intros x Hx; exact Hx|exact Ja_Rr|apply seq_nil; exact Ja_Rr]. }
      apply (seq_app Rr _ _ Rr); [apply Hep; assumption|]. cbn [app]. apply seq_cons_point.
      eapply seq_conseq; [intros x Hx; exact Hx|intros x _; exact I|apply Hep; assumption]. }
    apply (Hseq d eq_refl).
  Qed.
End RecoverCrash.

(* any number of recoveries cut short, one after the other *)
Theorem rcrash_mid H d js : Mid H d -> Mid H (rcrash d js) /\ content (rcrash d js) = content d.
Proof.
  revert d. induction js as [|j r IH]; intros d M; cbn [rcrash]; [split; [exact M|reflexivity]|].
  destruct (recover_prefix H d M j) as (M1 & C1 & _). destruct (IH _ M1) as (M2 & C2).
  split; [exact M2|rewrite C2; exact C1].
Qed.

Section RecoverSafety.
  Variable key_of : bytes -> option bytes.
  Variable p : params.
  Hypothesis maxb_pos : 0 < p_maxb p.

  (* the operation is cut short after n effects; then any number of recoveries are cut short, after
     j1, j2, ... effects; then commitlog.New runs to the end *)
  Definition crash_rec (s : st) (o : dop) (n : nat) (js : list nat) : option st :=
    match script key_of fixed p s o with
    | None => None
    | Some es => let r := recover fixed (rcrash (run_effs (s_disk s) (firstn n es)) js) in Some (mkSt r (d_hw r))
    end.

  Theorem crash_rec_safe s o n js : Good s -> op_ok s o ->
    exists s', crash_rec s o n js = Some s' /\ safe_after key_of p s o s'.
  Proof.
    intros G Hok. destruct (op_prefixes key_of p maxb_pos s o G Hok) as (es & Es & Hall & _). unfold crash_rec. rewrite Es.
    eexists. split; [reflexivity|]. destruct (rcrash_mid _ _ js (proj1 (Hall n))) as (M2 & C2). exact (image_recovers s o _ _ _ (Hall n) M2 C2).
  Qed.
End RecoverSafety.
