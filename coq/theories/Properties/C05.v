(* C05 -- The partition log recovers from a crash at any instant. *)
From LB Require Import Base.Prelude Log.Model Log.Retention Log.Compact Codec.Message Log.Proofs Log.Disk Log.DiskBase Log.DiskProofs
  Log.DiskBlocks Log.DiskTrunc Log.DiskClean Log.DiskCleanOp Log.DiskSafety Log.DiskTear Log.DiskTorn Log.DiskRecover Log.DiskRecoverProofs Log.DiskRefute.
Open Scope Z_scope.

(* The crash model (Log.Disk): the directory of a partition (segment logs and indexes, the
   .cleaned/.truncated replacement files, the HW and leader-epoch checkpoints), every operation of the
   commit log compiled into the list of its file-system effects in the order the code performs them
   (`script`), a crash as an arbitrary prefix of that list (`crash s o n`: the first n effects reached
   the disk), and commitlog.New on what is left (`recover`). `Good` is a log as it is between
   operations: segments in order with strictly increasing offsets, every index describing exactly its
   log, no stray index, the epoch history sorted, within the log and attributing to every record its
   leader epoch (`cmatch`), the HW checkpoint not above the HW. *)

(* What commitlog.New recovers from a crash image (indexes right or visibly short of their logs,
   segments well-formed, an epoch history that fits what is there): a good log with exactly the
   records of the image, the checkpointed HW, and the scratch files untouched. *)
Theorem C05_recovery : forall H d, Mid H d ->
  let r := recover fixed d in
  Good (mkSt r (d_hw r)) /\ content r = content d /\ d_hw r <= H /\ d_scr r = d_scr d /\ (d_segs d <> [] -> segs_of r = segs_of d).
Proof. exact mid_recover. Qed.
Print Assumptions C05_recovery.

(* Every operation, stopped after ANY number n of its effects: reopening succeeds ... *)
Theorem C05_reopen_succeeds : forall key_of p, 0 < p_maxb p -> forall s o n, Good s -> op_ok s o ->
  exists s', crash key_of fixed p s o n = Some s'.
Proof. exact crash_recovers. Qed.
Print Assumptions C05_reopen_succeeds.

(* ... and yields a good log whose HW is not above the one before, which holds nothing but what was
   there or was being appended (no phantom), and everything that was there except what the
   operation was removing (a truncation: offsets >= its argument; a clean: records outside the
   segments it leaves). *)
Theorem C05_crash_safe : forall key_of p, 0 < p_maxb p -> forall s o n s', Good s -> op_ok s o ->
  crash key_of fixed p s o n = Some s' ->
  Good s' /\ s_hw s' <= s_hw s /\
  (forall x, In x (content (s_disk s')) -> In x (content (s_disk s)) \/ In x (incoming s o)) /\
  (forall x, In x (content (s_disk s)) -> survives key_of p s o x -> In x (content (s_disk s'))).
Proof. exact crash_safe. Qed.
Print Assumptions C05_crash_safe.

(* A good log has no offset twice (offsets strictly increase along what a reader scans), and its
   epoch history is sorted and attributes to every record the epoch it was written in. *)
Theorem C05_no_duplicate_offsets : forall s, Good s -> sorted_from 0 (content (s_disk s)).
Proof. intros s G. destruct (good_wf s G) as [Hw <-]. exact (wf_all_sorted _ Hw). Qed.
Print Assumptions C05_no_duplicate_offsets.

Theorem C05_epoch_history_matches : forall s, Good s ->
  csorted (d_ep (s_disk s)) /\ cbound (d_ep (s_disk s)) (next_of s) /\
  forall x, In x (content (s_disk s)) -> epoch_at (d_ep (s_disk s)) (r_off x) = r_ep x.
Proof. intros s G. split; [apply (g_csorted _ G)|split; [apply (g_cbound _ G)|apply (g_cmatch _ G)]]. Qed.
Print Assumptions C05_epoch_history_matches.

(* A good log is a well-formed log of the in-memory model (C01), with the same records: C01's reader
   theorem applies to whatever a crash leaves -- an uncommitted reader from any offset returns exactly
   the recovered records at or above it, in order. *)
Theorem C05_recovered_log_reads : forall s o, Good s ->
  wf (log_of s) /\ all_recs (log_of s) = content (s_disk s) /\
  fst (read_uncommitted (log_of s) o) = filter (ge_off o) (content (s_disk s)).
Proof. intros s o G. destruct (good_wf s G) as [A B]. split; [exact A|split; [exact B|apply recovered_read; exact G]]. Qed.
Print Assumptions C05_recovered_log_reads.

(* Operations that complete keep the log good (so the next crash is covered as well). *)
Theorem C05_completed_operation : forall key_of p, 0 < p_maxb p -> forall s o, Good s -> op_ok s o ->
  exists s', exec key_of fixed p s o = Some s' /\ Good s'.
Proof. exact exec_good. Qed.
Print Assumptions C05_completed_operation.

(* ... and are exactly the operations of the in-memory model: what C01 (append, truncate, reopen, HW),
   C08 (compaction) and C09 (retention) prove about Log.Model holds of what is on disk. *)
Theorem C05_completed_operation_is_model_operation : forall key_of p, 0 < p_maxb p -> forall s o s', Good s -> op_ok s o ->
  exec key_of fixed p s o = Some s' -> log_of s' = model_op key_of p (log_of s) o.
Proof. exact exec_refines. Qed.
Print Assumptions C05_completed_operation_is_model_operation.

(* Whole histories: any sequence of completed operations and crashes (any number of them, each at any
   effect of any operation), from the empty directory on. *)
Theorem C05_initial_log : forall key_of p, exists s0, init key_of fixed p = Some s0 /\ Good s0 /\ content (s_disk s0) = [].
Proof. exact init_good. Qed.
Print Assumptions C05_initial_log.

Theorem C05_histories : forall key_of p, 0 < p_maxb p -> forall hs s, Good s -> hist_ok key_of p s hs ->
  exists s', fold_left (hstep_run key_of fixed p) hs (Some s) = Some s' /\ Good s'.
Proof. exact history_safe. Qed.
Print Assumptions C05_histories.

(* The premises can be met: a history with a roll, crashes inside an append, a truncation and a clean. *)
Theorem C05_premises_satisfiable : exists s0, init key_of fixed P30 = Some s0 /\ hist_ok key_of P30 s0 sample_history /\
  offsets_of (fold_left (hstep_run key_of fixed P30) sample_history (Some s0)) = [0; 1].
Proof. exact sample_history_ok. Qed.
Print Assumptions C05_premises_satisfiable.

(* The pinned commit, refuted: each of the three repairs is needed. Without the index rebuild the
   batch whose index write was lost stays in the log file and the next append is numbered from the
   index, so offset 1 is delivered twice ... *)
Theorem C05_pinned_no_rebuild_refuted :
  offsets_of (run key_of (mkV false true true) P1000 [HDo (DAppend [msg1 1]); HCrash (DAppend [msg1 1]) 2; HDo (DAppend [msg1 1])]) = [0; 1; 1].
Proof. vm_compute. reflexivity. Qed.
Print Assumptions C05_pinned_no_rebuild_refuted.

(* ... and when the lost index entry was the first of a full segment, Append never returns
   (checkAndPerformSplit retries ErrSegmentExists for ever): the model has no next state. *)
Theorem C05_pinned_no_rebuild_hang_refuted :
  run key_of (mkV false true true) P30 [HCrash (DAppend [msg1 1]) 3; HDo (DAppend [msg1 1])] = None.
Proof. vm_compute. reflexivity. Qed.
Print Assumptions C05_pinned_no_rebuild_hang_refuted.

(* Epochs recorded after the write: the recovered log holds a message of epoch 2 its history does not know. *)
Theorem C05_pinned_epoch_after_write_refuted :
  match run key_of (mkV true false true) P1000 [HDo (DAppend [msg1 1]); HCrash (DAppend [msg1 2]) 4] with
  | Some s => map (fun r => (r_off r, r_ep r, epoch_at (d_ep (s_disk s)) (r_off r))) (content (s_disk s))
  | None => []
  end = [(0, 1%N, 1%N); (1, 2%N, 1%N)].
Proof. vm_compute. reflexivity. Qed.
Print Assumptions C05_pinned_epoch_after_write_refuted.

(* Replacement files reused: a truncation that died before its renames leaves <base>.log.truncated
   behind, the next truncation appends to it, and the segment then holds offsets 0 and 1 twice. *)
Theorem C05_pinned_stale_replacement_refuted :
  offsets_of (run key_of (mkV true true false) P1000 [HDo (DAppend [msg1 1; msg1 1; msg1 1]); HCrash (DTrunc 2) 8; HDo (DTrunc 2)]) = [0; 1; 0; 1].
Proof. vm_compute. reflexivity. Qed.
Print Assumptions C05_pinned_stale_replacement_refuted.

(* ---- a crash INSIDE a write (Log.DiskTear Log.DiskTorn) ----
   The unit of atomicity above is one file-system effect. A killed process can also leave a short
   write(2) of a batch (some whole frames and j bytes of the next) or a partly stored run of index
   entries (some whole entries and a visible part of the next whose position+size fields read q).
   For every operation, every effect of it that appends, every number k of whole frames/entries that
   arrived and every such remainder: commitlog.New succeeds (the junk is always detected by
   indexCoversLog and cut off by rebuildIndex -- `crash_torn` would answer None otherwise) and the
   recovered log is good, holds no phantom, and has lost nothing but what was being removed. *)
Theorem C05_torn_write_safe : forall key_of p, 0 < p_maxb p -> forall s o n k z e d, Good s -> op_ok s o ->
  torn_image key_of fixed p s o n k = Some (e, d) -> tear_ok d e k z ->
  exists s', crash_torn key_of fixed p s o n k z = Some s' /\
    Good s' /\ s_hw s' <= s_hw s /\
    (forall x, In x (content (s_disk s')) -> In x (content (s_disk s)) \/ In x (incoming s o)) /\
    (forall x, In x (content (s_disk s)) -> survives key_of p s o x -> In x (content (s_disk s'))).
Proof. exact torn_safe. Qed.
Print Assumptions C05_torn_write_safe.

(* histories of completed operations, crashes between effects and crashes inside writes *)
Theorem C05_torn_histories : forall key_of p, 0 < p_maxb p -> forall ts s, Good s -> thist_ok key_of p s ts ->
  exists s', fold_left (tstep_run key_of p) ts (Some s) = Some s' /\ Good s'.
Proof. exact thistory_safe. Qed.
Print Assumptions C05_torn_histories.

Theorem C05_torn_premises_satisfiable : exists s0, init key_of fixed P1000 = Some s0 /\
  thist_ok key_of P1000 s0 (torn_history 1 5) /\ thist_ok key_of P1000 s0 (torn_history 3 41).
Proof. exact torn_history_ok. Qed.
Print Assumptions C05_torn_premises_satisfiable.

Theorem C05_torn_examples :
  offsets_of (fold_left (tstep_run key_of P1000) (torn_history 1 5) (init key_of fixed P1000)) = [0; 1; 2] /\
  offsets_of (fold_left (tstep_run key_of P1000) (torn_history 3 41) (init key_of fixed P1000)) = [0; 1; 2; 3].
Proof. vm_compute. split; reflexivity. Qed.
Print Assumptions C05_torn_examples.

(* the pinned commit (no index rebuild) keeps the junk of a torn write in the log file: commitlog.New leaves
   a directory the model cannot describe (every later read of that segment fails on the junk) *)
Theorem C05_pinned_torn_write_refuted :
  match init key_of (mkV false true true) P1000 with
  | Some s0 => match exec key_of (mkV false true true) P1000 s0 (DAppend [msg1 1]) with
               | Some s1 => crash_torn key_of (mkV false true true) P1000 s1 (DAppend [msg1 1; msg1 1]) 1 1 (Some 5)
               | None => None
               end
  | None => None
  end = None.
Proof. vm_compute. reflexivity. Qed.
Print Assumptions C05_pinned_torn_write_refuted.

(* ---- a crash INSIDE commitlog.New (Log.DiskRecover) ----
   commitlog.New is itself a sequence of file-system effects (`recover_effs`: stray indexes removed,
   missing indexes created, indexes that do not end where their log ends removed, created again and
   written entry by entry, segment 0 created in an empty directory, the epoch checkpoint trimmed
   twice). After ANY prefix of them the directory is again a crash image with the same records and
   the same HW checkpoint ... *)
Theorem C05_crash_inside_recovery : forall H d, Mid H d -> forall j,
  let d' := run_effs d (firstn j (recover_effs d)) in
  Mid H d' /\ content d' = content d /\ d_hw d' = d_hw d.
Proof. exact recover_prefix. Qed.
Print Assumptions C05_crash_inside_recovery.

(* ... so an operation cut short after any n effects, followed by any number of recoveries cut short
   after j1, j2, ... effects, followed by a recovery that completes, gives a good log with the same
   guarantees as a single crash. *)
Theorem C05_recoveries_cut_short : forall key_of p, 0 < p_maxb p -> forall s o n js, Good s -> op_ok s o ->
  exists s', crash_rec key_of p s o n js = Some s' /\
    Good s' /\ s_hw s' <= s_hw s /\
    (forall x, In x (content (s_disk s')) -> In x (content (s_disk s)) \/ In x (incoming s o)) /\
    (forall x, In x (content (s_disk s)) -> survives key_of p s o x -> In x (content (s_disk s'))).
Proof. exact crash_rec_safe. Qed.
Print Assumptions C05_recoveries_cut_short.

(* The second append dies after its log write (the index lacks two entries); the recovery that follows
   dies after removing the stale index, the next one after re-creating it empty, the
   third runs to the end: offsets 0, 1, 2, with an index that covers them (the next append gets 3). *)
Theorem C05_recovery_crash_example :
  match init key_of fixed P1000 with
  | Some s0 => match exec key_of fixed P1000 s0 (DAppend [msg1 1]) with
               | Some s1 => (length (recover_effs (run_effs (s_disk s1) (firstn 3 (match script key_of fixed P1000 s1 (DAppend [msg1 1; msg1 2]) with Some es => es | None => [] end)))),
                             offsets_of (crash_rec key_of P1000 s1 (DAppend [msg1 1; msg1 2]) 3 [1; 5]%nat),
                             offsets_of (match crash_rec key_of P1000 s1 (DAppend [msg1 1; msg1 2]) 3 [1; 5]%nat with
                                         | Some s2 => exec key_of fixed P1000 s2 (DAppend [msg1 2]) | None => None end))
               | None => (O, [], [])
               end
  | None => (O, [], [])
  end = (11%nat, [0; 1; 2], [0; 1; 2; 3]).
Proof. vm_compute. reflexivity. Qed.
Print Assumptions C05_recovery_crash_example.
