(* C12 -- Each partition is assigned to exactly one consumer of a group. *)
From LB Require Import Base.Prelude Meta.Groups Meta.GroupsProofs Meta.GroupsSingle.
Open Scope Z_scope.

(* After ANY sequence of joins (of non-members), leaves/expiries and stream deletions, for
   any partition counts: every partition of every stream with at least one subscribed member
   has exactly one owner, and that owner subscribes to the stream. *)
Theorem C12_exactly_one_owner : forall (np : sid -> Z) g s p,
  greachable np g -> has_sub s (g_members g) -> 0 <= p < np s ->
  exists t, filter (fun t => is_s s t && (t_part t =? p)) (g_owners g) = [t] /\
            exists m, In m (g_members g) /\ m_id m = t_cons t /\ subscribes s m = true.
Proof. intros np g s p H. apply exactly_one_owner. apply reachable_inv. exact H. Qed.
Print Assumptions C12_exactly_one_owner.

(* No member is assigned a partition of a stream it did not subscribe to ... *)
Theorem C12_only_subscribed : forall (np : sid -> Z) g t, greachable np g -> In t (g_owners g) ->
  exists m, In m (g_members g) /\ m_id m = t_cons t /\ subscribes (t_stream t) m = true.
Proof. intros np g t H. apply (only_subscribed np). apply reachable_inv. exact H. Qed.
Print Assumptions C12_only_subscribed.

(* ... nor a partition the stream does not have. *)
Theorem C12_only_existing_partitions : forall (np : sid -> Z) g t, greachable np g -> In t (g_owners g) ->
  0 <= t_part t < np (t_stream t).
Proof. intros np g t H. apply only_existing_partitions. apply reachable_inv. exact H. Qed.
Print Assumptions C12_only_existing_partitions.

(* Rebalancing a stream in a group that consumes only that stream leaves the subscribers'
   partition counts within one of each other. *)
Theorem C12_single_stream_balanced : forall (np : sid -> Z) s ms ow,
  (forall t, In t ow -> t_stream t = s) -> has_sub s ms -> spread s ms (balance np s ms ow).
Proof. intros np s ms ow H _. apply balance_single_stream. exact H. Qed.
Print Assumptions C12_single_stream_balanced.

(* ... and so in EVERY state of a group consuming a single stream, after any history of joins
   and leaves/expiries (any ids, any order, any partition count): all assignments are of that
   stream and the members' partition counts differ by at most one.  Such histories are
   histories of C12_exactly_one_owner as well (second theorem). *)
Theorem C12_single_stream_histories_balanced : forall (np : sid -> Z) s g, sreach np s g ->
  (forall m, In m (g_members g) -> m_streams m = [s]) /\
  (forall t, In t (g_owners g) -> t_stream t = s) /\
  spread s (g_members g) (g_owners g).
Proof. exact sreach_balanced. Qed.
Print Assumptions C12_single_stream_histories_balanced.

Theorem C12_single_stream_histories_reachable : forall (np : sid -> Z) s g, sreach np s g -> greachable np g.
Proof. exact sreach_greachable. Qed.
Print Assumptions C12_single_stream_histories_reachable.

(* Operations carrying an older group epoch are refused (and so change nothing). The
   assignment is a function of the operation sequence by construction of the model; that
   the implementation computes the same function -- on two independently built groups and
   under Go's randomised map iteration -- is what the correspondence run checks. *)
Theorem C12_stale_epoch_refused : forall np g c ss s e, (e < g_epoch g)%N ->
  add_member np g c ss e = GRefused /\ remove_member np g c e = GRefused /\ stream_deleted np g s e = GRefused.
Proof. exact stale_epoch_refused. Qed.
Print Assumptions C12_stale_epoch_refused.

(* non-vacuity: two streams with 3 and 2 partitions, three consumers with overlapping subscriptions *)
Example C12_example :
  let np := fun s : sid => if N.eqb s 1 then 3 else 2 in
  let run := fun g (f : group -> gres) => match f g with GOk g' => g' | _ => g end in
  let g1 := run new_group (fun g => add_member np g 1%N [1; 2]%N 1%N) in
  let g2 := run g1 (fun g => add_member np g 2%N [1]%N 2%N) in
  let g3 := run g2 (fun g => add_member np g 3%N [2; 1]%N 3%N) in
  let g4 := run g3 (fun g => remove_member np g 1%N 4%N) in
  (assignment_of g3 1%N 1%N, assignment_of g3 2%N 1%N, assignment_of g3 3%N 1%N, assignment_of g3 1%N 2%N, assignment_of g3 3%N 2%N)
    = ([], [0; 2], [1], [0; 1], []) /\
  (assignment_of g4 2%N 1%N, assignment_of g4 3%N 1%N, assignment_of g4 3%N 2%N) = ([0; 2], [1], [0; 1]).
Proof. vm_compute. split; reflexivity. Qed.
