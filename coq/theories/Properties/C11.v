(* C11 -- A cursor fetch returns the last cursor that was stored. *)
From LB Require Import Base.Prelude Log.Model Log.Retention Log.Compact Log.Proofs Log.CompactProofs
  Api.Cursors Api.CursorsProofs Api.CursorsLog.
Open Scope Z_scope.

(* Sequential histories: after ANY sequence of successful and failed SetCursor calls, fetches
   (through the cache or scanning), cache evictions, cache purges (leader change, restart) and
   compactions of the cursors partition that keep the latest message of every key, FetchCursor
   returns the offset of the most recent successful SetCursor for the key, or -1. *)
Theorem C11_fetch_returns_last_set : forall ops k, all_legal (mkC [] []) ops ->
  snd (cstep (run (mkC [] []) ops) (CGet k)) = Some (spec_value k ops (-1)) /\
  snd (cstep (run (mkC [] []) ops) (CGetScan k)) = Some (spec_value k ops (-1)).
Proof.
  intros ops k Hl. destruct (run_props (mkC [] []) ops k coherent_init Hl) as [H1 H2].
  destruct (get_returns_latest _ k H1) as [G1 G2]. rewrite G1, G2, H2. split; reflexivity.
Qed.
Print Assumptions C11_fetch_returns_last_set.

(* the hypothesis is met by a history that does all of it *)
Example C11_history_is_legal :
  let ops := [CSet 1%N 10; CSet 2%N 20; CGet 1%N; CSet 1%N 11; CEvict 1%N; CCompact [(2%N, 20); (1%N, 11)]; CPurge; CSetFailed 2%N 99; CGet 2%N] in
  all_legal (mkC [] []) ops /\ spec_value 1%N ops (-1) = 11 /\ spec_value 2%N ops (-1) = 20.
Proof.
  cbn. repeat split; try (intros ? Hd; discriminate Hd).
  intros nl [= <-] k. unfold latest. cbn [rev app scan_back c_log].
  destruct (N.eqb 1 k), (N.eqb 2 k); reflexivity.
Qed.

(* Interleavings: a fetch that misses the cache scans the log and then fills the cache; with the
   lock held across both, in every enabled schedule every fetch returns what the log holds for
   its key at the moment it returns, which is the most recent completed SetCursor. *)
Theorem C11_every_schedule : forall ops answers,
  all_alegal true (mkA (mkC [] []) []) ops -> arun true (mkA (mkC [] []) []) ops = Some answers ->
  Forall (fun p => fst p = snd p) answers.
Proof.
  intros ops answers. apply arun_correct. exact ainv_init.
Qed.
Print Assumptions C11_every_schedule.

Theorem C11_log_follows_sets : forall locked s o s' ans k, alegal s o -> astep locked s o = Some (s', ans) ->
  latest k (c_log (a_c s')) = aspec k [o] (latest k (c_log (a_c s))).
Proof. exact astep_latest. Qed.
Print Assumptions C11_log_follows_sets.

(* The pinned code released the lock between scan and fill: fetch 1 scans, SetCursor(7, 5)
   completes, fetch 1 caches the -1 it found, and the next fetch is served -1 from the cache
   although 5 was stored -- and so is every later one until the entry is evicted. *)
Theorem C11_refuted_unlocked_fill :
  arun false (mkA (mkC [] []) []) [AScan 1 7%N; ASet 7%N 5; AFill 1; AHit 7%N; AHit 7%N] = Some [(-1, 5); (-1, 5); (-1, 5)] /\
  arun true (mkA (mkC [] []) []) [AScan 1 7%N; ASet 7%N 5; AFill 1; AHit 7%N] = None /\
  arun true (mkA (mkC [] []) []) [AScan 1 7%N; AFill 1; ASet 7%N 5; AHit 7%N] = Some [(-1, -1); (5, 5)].
Proof. vm_compute. repeat split; reflexivity. Qed.
Print Assumptions C11_refuted_unlocked_fill.

(* On the commit-log model: the scan GetCursor performs (committed reverse read from the latest
   offset, first message with the key) never fails on a well-formed log and finds the newest
   committed record with the key ... *)
Theorem C11_scan_finds_newest_committed : forall key_of l k, wf l -> 0 <= l_hw l <= newest l -> oldest l <> -1 ->
  get_cursor_log key_of l k = Some (scan_log key_of (l_hw l) k (all_recs l)).
Proof. exact get_cursor_log_scan. Qed.
Print Assumptions C11_scan_finds_newest_committed.

(* ... and compaction of any segment layout, at any HW, does not change what it finds: this is
   the keeps_latest hypothesis above, for the compaction the commit log actually performs. *)
Theorem C11_compaction_keeps_scan_result : forall key_of hw k lo older last,
  0 <= lo -> older <> [] -> segs_wf lo (older ++ [last]) ->
  scan_log key_of hw k (flat (compact_segs key_of false hw (older ++ [last]))) = scan_log key_of hw k (flat (older ++ [last])).
Proof. intros key_of hw k lo older last Hlo _. exact (scan_after_compaction key_of hw k lo older last Hlo). Qed.
Print Assumptions C11_compaction_keeps_scan_result.
