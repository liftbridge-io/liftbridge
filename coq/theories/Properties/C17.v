(* C17 -- Encrypted streams never store plaintext and always return it.
   AES-GCM and the RFC 5649 key wrap are parameters; what is assumed about them appears as
   premises of each theorem (nothing is an axiom). *)
From LB Require Import Base.Prelude Codec.EncFrame Codec.EncFrameProofs.

(* Reading any byte string returns a value or an error, never a crash (length-checked code). *)
Theorem C17_read_total : forall unwrap key_ok aead_open (d : bytes),
  read unwrap key_ok aead_open true d <> Panic.
Proof. exact read_total. Qed.
Print Assumptions C17_read_total.

(* The pinned code: empty value, or a key-size byte beyond the data. *)
Theorem C17_refuted_unchecked_lengths : forall unwrap key_ok aead_open,
  read unwrap key_ok aead_open false [] = Panic /\
  forall t, length t < 255 -> read unwrap key_ok aead_open false (255%N :: t) = Panic.
Proof. exact read_unguarded_panics. Qed.
Print Assumptions C17_refuted_unchecked_lengths.

(* Every subscriber receives exactly the value that was published (given that unwrap inverts
   wrap and open inverts seal for this key and nonce). *)
Theorem C17_roundtrip : forall wrap unwrap key_ok aead_seal aead_open g dek nonce data,
  unwrap (wrap dek) = Some dek -> key_ok dek = true -> length nonce = nonce_len ->
  length (wrap dek) < 256 ->
  aead_open dek nonce (aead_seal dek nonce data) = Some data ->
  read unwrap key_ok aead_open g (seal wrap aead_seal dek nonce data) = Ok data.
Proof. exact seal_read_roundtrip. Qed.
Print Assumptions C17_roundtrip.

(* A stored value that was tampered with yields an error instead of data: given ciphertext
   integrity of both primitives, whatever is accepted is a sealed value. *)
Theorem C17_tamper_rejected : forall wrap unwrap key_ok aead_seal aead_open g d,
  (forall w k, unwrap w = Some k -> w = wrap k) ->
  (forall k n c q, aead_open k n c = Some q -> length n = nonce_len -> c = aead_seal k n q) ->
  (forall k, length (wrap k) < 256) ->
  (forall dek nonce data, length nonce = nonce_len -> d <> seal wrap aead_seal dek nonce data) ->
  forall p, read unwrap key_ok aead_open g d <> Ok p.
Proof. exact tampered_value_rejected. Qed.
Print Assumptions C17_tamper_rejected.

(* A value sealed under a different master key yields an error (given that the other key's
   wrapping does not unwrap under this one). *)
Theorem C17_wrong_key_rejected : forall unwrap key_ok aead_seal aead_open g (wrap' : bytes -> bytes) dek nonce data,
  unwrap (wrap' dek) = None -> length (wrap' dek) < 256 ->
  forall p, read unwrap key_ok aead_open g (seal wrap' aead_seal dek nonce data) <> Ok p.
Proof. exact wrong_master_key_rejected. Qed.
Print Assumptions C17_wrong_key_rejected.
