(* C04 -- Acknowledgements mean what the ack policy says. *)
From LB Require Import Base.Prelude Repl.Acks Repl.AcksProofs Repl.AcksTerm.
Open Scope Z_scope.

(* For every sequence of batches (any mix of policies, sizes, expected offsets), follower progress
   reports, ISR shrinks and expansions, and leader terms (another replica leads for a while, this
   server follows it and then leads again), from any state whose commit queue names stored messages
   (the initial state does), every acknowledgement sent by a step means this, in the state right
   after the step:
     ALL    : the message is stored at the acknowledged offset with that correlation id, the ISR
              has at least the minimum size, and every ISR member has reported an offset at or
              beyond it (and the HW covers it);
     LEADER : the message is stored at the acknowledged offset with that correlation id, by this
              very step;
     NONE   : never acknowledged. *)
Theorem C04_every_ack_means_its_policy : forall xs s, QInv s -> all_steps_ok s xs.
Proof. exact every_ack_means_its_policy. Qed.
Print Assumptions C04_every_ack_means_its_policy.

Theorem C04_initial_state_ok : forall replicas min_isr cc, QInv (init_state replicas min_isr cc).
Proof. intros replicas min_isr cc a []. Qed.
Print Assumptions C04_initial_state_ok.

(* the offset of a positive acknowledgement keeps naming that message: within a leader term the
   log only grows *)
Theorem C04_log_only_grows : forall xs s s' acks, QInv s -> forallb (fun x => negb (is_regain x)) xs = true ->
  run s xs = (s', acks) -> exists st, l_log s' = l_log s ++ st.
Proof. intros xs s s' acks _. apply log_only_grows. Qed.
Print Assumptions C04_log_only_grows.

(* across a change of leader: the change itself acknowledges nothing and leaves no ack pending, the
   HW does not go back, and every message at or below the HW stays at its offset when the log was
   cut back no further than the HW (that it is not is C02's) *)
Theorem C04_new_term_keeps_committed : forall s keep foreign hw s' out, step s (LRegain keep foreign hw) = (s', out) ->
  out = [] /\ l_queue s' = [] /\ l_hw s <= l_hw s' /\
  (l_hw s <= keep -> forall i m, Z.of_nat i <= l_hw s -> nth_error (l_log s) i = Some m -> nth_error (l_log s') i = Some m).
Proof.
  intros s keep foreign hw s' out. cbn [step]. intros [= <- <-]. cbn [l_queue l_hw l_log]. split; [reflexivity|]. split; [reflexivity|]. split; [lia|].
  intros Hk i m Hi Hm. assert (Hlt : (i < length (l_log s))%nat) by (apply nth_error_Some; congruence).
  rewrite nth_error_app1 by (rewrite firstn_length; lia). rewrite nth_error_firstn. replace (i <? Z.to_nat (keep + 1))%nat with true by lia. exact Hm.
Qed.
Print Assumptions C04_new_term_keeps_committed.

(* "every member of the in-sync set has stored the message" is known to the leader only through
   what the members report.  Beside the leader's state runs the list of progress reports received
   in the current leader term (emptied when a new term starts).  For every history, every
   ALL-policy acknowledgement: each in-sync replica other than the leader has itself reported, in
   this term, an offset at or beyond the message's.  Nothing remembered from an earlier term counts. *)
Theorem C04_all_ack_rests_on_reports_of_this_term : forall xs s g, QInv s -> Believes s g -> all_told_ok s g xs.
Proof. exact every_all_ack_rests_on_this_terms_reports. Qed.
Print Assumptions C04_all_ack_rests_on_reports_of_this_term.

Theorem C04_initial_state_believes_nothing : forall replicas min_isr cc, Believes (init_state replicas min_isr cc) [].
Proof.
  intros replicas min_isr cc r o Hin _. cbn [init_state l_isr] in Hin. apply in_map_iff in Hin. destruct Hin as (r1 & [= <- <-] & _). apply Z.le_refl.
Qed.
Print Assumptions C04_initial_state_believes_nothing.

Theorem C04_new_term_forgets_reports : forall s keep foreign hw s' out, step s (LRegain keep foreign hw) = (s', out) ->
  forall r o, In (r, o) (l_isr s') -> r <> 0%N -> o = -1.
Proof.
  intros s keep foreign hw s' out. cbn [step]. intros [= <- <-] r o Hin Hr. cbn [l_isr] in Hin. apply in_map_iff in Hin. destruct Hin as ([r1 o1] & [= <- <-] & _).
  cbn [fst]. destruct (N.eqb_spec r1 0) as [->|_]; [contradiction|reflexivity].
Qed.
Print Assumptions C04_new_term_forgets_reports.

(* a rejected message is not stored: what a publish step appends are messages of the batch that
   are not too large and whose value could be sealed, and a batch refused for its expected offset leaves the log unchanged (with
   concurrency control each message is a batch of its own) *)
Theorem C04_only_accepted_messages_stored : forall s ms s' out, QInv s -> step s (LPublish ms) = (s', out) ->
  exists st, l_log s' = l_log s ++ st /\ forall m, In m st -> In m ms /\ pm_too_large m = false /\ pm_seal_fails m = false.
Proof. intros s ms s' out _. apply step_stores_only_accepted. Qed.
Print Assumptions C04_only_accepted_messages_stored.

(* ... and is negatively acknowledged: an encryption error for a value that cannot be sealed
   (whatever its size), a too-large error otherwise *)
Theorem C04_refused_messages_are_nacked : forall s ms s' out m, step s (LPublish ms) = (s', out) -> In m ms ->
  (pm_seal_fails m = true -> In (mkAck (pm_corr m) (pm_policy m) 0 AEncryption) out) /\
  (pm_seal_fails m = false -> pm_too_large m = true -> In (mkAck (pm_corr m) (pm_policy m) 0 ATooLarge) out).
Proof. exact refused_messages_are_nacked. Qed.
Print Assumptions C04_refused_messages_are_nacked.

Theorem C04_refused_batch_not_stored : forall s ms s' out a, QInv s -> store_batch s ms = (s', out) -> In a out ->
  ak_kind a = AIncorrectOffset -> l_log s' = l_log s.
Proof. exact refused_batch_not_stored. Qed.
Print Assumptions C04_refused_batch_not_stored.

(* the statement is not vacuous: a history with all three policies, a slow follower, a shrink, an
   expansion, a too-large message; and the replication-factor-1 fast path *)
Example C04_history :
  snd (run (init_state [0; 1; 2]%N 2 false)
           [LPublish [mkMsg 1 PAll false (-1); mkMsg 2 PLeader false (-1); mkMsg 3 PNone false (-1); mkMsg 4 PAll true (-1)];
            LFollower 1 2; LFollower 2 0; LShrink 2; LExpand 2; LPublish [mkMsg 5 PAll false (-1)]; LFollower 1 3; LFollower 2 3])
  = [mkAck 4 PAll 0 ATooLarge; mkAck 2 PLeader 1 AOk; mkAck 1 PAll 0 AOk; mkAck 5 PAll 3 AOk].
Proof. vm_compute. reflexivity. Qed.

Example C04_fast_path :
  let '(s, acks) := run (init_state [0%N] 1 true)
                        [LPublish [mkMsg 1 PLeader false (-1)]; LPublish [mkMsg 2 PAll false 1]; LPublish [mkMsg 3 PAll false 5]; LPublish [mkMsg 4 PNone false 2]] in
  acks = [mkAck 1 PLeader 0 AOk; mkAck 2 PAll 1 AOk; mkAck 3 PAll 0 AIncorrectOffset] /\ l_hw s = 2 /\ length (l_log s) = 3%nat.
Proof. vm_compute. repeat split; reflexivity. Qed.

(* two leader terms: replica 2 reported offset 2 in the first term; replica 1 leads and overwrites
   the tail; in the second term replica 1 alone reports the ALL message at offset 2 -- no ack; it
   comes when replica 2 reports too *)
Example C04_two_terms :
  let xs := [LPublish [mkMsg 1 PNone false (-1)]; LPublish [mkMsg 2 PNone false (-1)]; LPublish [mkMsg 3 PNone false (-1)];
             LFollower 2 2; LFollower 1 0; LRegain 0 1 0; LPublish [mkMsg 4 PAll false (-1)]; LFollower 1 2] in
  snd (run (init_state [0; 1; 2]%N 2 false) xs) = [] /\
  snd (run (init_state [0; 1; 2]%N 2 false) (xs ++ [LFollower 2 2])) = [mkAck 4 PAll 2 AOk].
Proof. vm_compute. split; reflexivity. Qed.

(* a batch on an encrypting stream: the value of message 2 cannot be sealed, message 3 is too large
   and cannot be sealed either: 1 and 4 are stored *)
Example C04_seal_failures :
  let '(s, acks) := run (init_state [0%N] 1 false)
                        [LPublish [mkMsg 1 PLeader false (-1); mkMsgE 2 PAll false (-1) true; mkMsgE 3 PLeader true (-1) true; mkMsg 4 PAll false (-1)]] in
  acks = [mkAck 2 PAll 0 AEncryption; mkAck 3 PLeader 0 AEncryption; mkAck 1 PLeader 0 AOk; mkAck 4 PAll 1 AOk] /\ length (l_log s) = 2%nat.
Proof. vm_compute. split; reflexivity. Qed.
