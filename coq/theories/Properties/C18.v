(* C18 -- The activity stream lists metadata changes in commit order, at least once. *)
From LB Require Import Base.Prelude Api.Activity Api.ActivityProofs.

(* For every schedule of commits, controller changes, dispatcher steps with any outcome (publish
   fails; publish succeeds but recording the index fails; both succeed), snapshots with log
   compaction and restarts: *)

(* the dispatcher never asks the log store for a compacted entry (no panic); *)
Theorem C18_dispatcher_never_panics : forall xs, arun true init xs <> Panic.
Proof. intros xs. apply (run_inv xs init inv_init). Qed.
Print Assumptions C18_dispatcher_never_panics.

(* every id in the stream is the Raft index of a stream or group operation -- so it is the same on
   every redelivery and larger than the id of every earlier operation -- and an id appears for the
   first time only after the events of all earlier operations have appeared; *)
Theorem C18_events_in_commit_order : forall xs s, arun true init xs = Ok s ->
  first_seen_ok (a_log s) [] (a_stream s) = true.
Proof. exact activity_order. Qed.
Print Assumptions C18_events_in_commit_order.

Theorem C18_ids_are_operation_indices : forall xs s j, arun true init xs = Ok s -> In j (a_stream s) -> is_ev (a_log s) j = true.
Proof. intros xs s j H. exact (fs_ok_in _ _ [] j (inv_order s (reach_inv xs s H))). Qed.
Print Assumptions C18_ids_are_operation_indices.

(* whenever the dispatcher has caught up with the log, every operation has been delivered; *)
Theorem C18_at_least_once : forall xs s i, arun true init xs = Ok s -> a_disp s = Some i -> length (a_log s) < i ->
  all_delivered (a_log s) (a_stream s) = true.
Proof. exact activity_at_least_once. Qed.
Print Assumptions C18_at_least_once.

(* and an index is recorded as published only after its event is in the stream. *)
Theorem C18_recorded_means_published : forall xs s, arun true init xs = Ok s -> records_ok (a_log s) (a_stream s) = true.
Proof. intros xs s H. apply records_ok_iff, inv_records, (reach_inv xs), H. Qed.
Print Assumptions C18_recorded_means_published.

(* a schedule with publish failures, a lost record, a controller change, a snapshot and a restart:
   the event of the second operation is delivered twice, nothing is lost, the order holds *)
Example C18_schedule_with_faults :
  match arun true init [XCommit (ECmd true); XCommit ENoop; XCommit (ECmd true); XStart; XStep PubOk; XStep PubOk; XStep PubFail; XStep PubOkRecFail; XStop;
                        XCommit (ECmd false); XStart; XStep PubOk; XStep PubOk; XStep PubOk; XStep PubOk; XStep PubOk; XSnapshot 1; XRestart; XStart; XCommit (ECmd true);
                        XStep PubOk; XStep PubOk; XStep PubOk; XStep PubOk] with
  | Ok s => a_stream s = [1; 3; 3; 7] /\ a_lastpub s = 7 /\ a_first s = 6
  | _ => False
  end.
Proof. vm_compute. repeat split; reflexivity. Qed.

(* The pinned code. *)
Theorem C18_refuted_panic_after_snapshot :
  arun false init [XCommit (ECmd true); XStart; XStep PubOk; XStop; XSnapshot 0; XRestart; XStart; XStep PubOk] = Panic.
Proof. exact pinned_panics. Qed.
Print Assumptions C18_refuted_panic_after_snapshot.

(* The dispatcher trails behind entries that do not wake it (barriers after the recorded event); the
   log is compacted with every event published; the next operation wakes it.  The repaired
   dispatcher continues at the first entry there is and delivers the new event; the code before
   that repair panicked on the entry that is gone (found by the thorough tier on the real server). *)
Theorem C18_refuted_panic_on_trailing_entries :
  option_map a_stream (match arun true init trailing_schedule with Ok s => Some s | _ => None end) = Some [1; 5] /\
  arun false init trailing_schedule = Panic.
Proof. vm_compute. split; reflexivity. Qed.
Print Assumptions C18_refuted_panic_on_trailing_entries.
