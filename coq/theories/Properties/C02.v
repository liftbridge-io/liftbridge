(* C02 -- Committed messages survive leader changes; replicas never diverge below the HW. *)
From LB Require Import Base.Prelude Meta.Fsm Repl.Cluster Repl.ClusterProofs Repl.EpochCache Repl.EpochCacheProofs Repl.Fallback Repl.FallbackProofs.
Open Scope Z_scope.

(* The protocol model (Repl.Cluster): publishes at the leader, fetches of any size by reconciled
   followers, elections of a reconciled in-sync replica in a fresh epoch, reconciliation (a replica
   asks the leader where its last epoch ends and truncates), ISR shrinks and expansions, the
   commit rule with any minimum ISR size -- in any order, for any number of replicas. *)

(* every state of every history satisfies the invariant ... *)
Theorem C02_invariant : forall replicas L e m xs, In L replicas -> Inv (run true (init_cluster replicas L e m) xs).
Proof. intros replicas L e m xs HL. apply run_inv. apply inv_init. exact HL. Qed.
Print Assumptions C02_invariant.

(* ... from which: any two replicas hold identical entries at every offset at or below both of
   their high watermarks; *)
Theorem C02_replicas_agree_below_hw : forall c r1 r2 o e1 e2, Inv c ->
  Z.of_nat o <= hw_of c r1 -> Z.of_nat o <= hw_of c r2 ->
  nth_error (log_of c r1) o = Some e1 -> nth_error (log_of c r2) o = Some e2 -> e1 = e2.
Proof. intros c r1 r2 o e1 e2 HI H1 H2 N1 N2. pose proof (iH2 c HI r1 o e1 H1 N1). pose proof (iH2 c HI r2 o e2 H2 N2). congruence. Qed.
Print Assumptions C02_replicas_agree_below_hw.

(* the leader and every in-sync replica -- the only ones that can be elected -- hold everything
   that was ever committed, and every replica's HW lies within it; *)
Theorem C02_electable_replicas_hold_committed : forall c r, Inv c -> In r (c_isr c) -> prefix (c_committed c) (log_of c r).
Proof. intros c r HI. apply (iG c HI). Qed.
Print Assumptions C02_electable_replicas_hold_committed.

Theorem C02_leader_holds_committed : forall c, Inv c -> prefix (c_committed c) (log_of c (c_leader c)).
Proof. intros c HI. apply (iG c HI), HI. Qed.
Print Assumptions C02_leader_holds_committed.

Theorem C02_hw_within_committed : forall c r, Inv c -> hw_of c r + 1 <= Z.of_nat (length (c_committed c)).
Proof. intros c r HI. apply (iH1 c HI). Qed.
Print Assumptions C02_hw_within_committed.

(* Read strictly -- both replicas HOLD a message at the offset, and the same one: so it is for the
   replicas that can be elected (the in-sync ones and the leader), at every offset at or below both
   of their HWs.  A replica outside the in-sync set that is catching up takes the leader's HW from
   every replication response, also from one that brings it only part of the way: its HW can lie
   beyond its own log end (C02_lagging_replica_hw_beyond_its_log; the real follower does the same,
   the tie compares every replica's HW after every step).  It holds nothing different there, serves
   no reader and cannot be elected before it has caught up. *)
Theorem C02_electable_replicas_identical_below_both_hws : forall c r1 r2 o, Inv c ->
  In r1 (c_isr c) \/ r1 = c_leader c -> In r2 (c_isr c) \/ r2 = c_leader c ->
  Z.of_nat o <= hw_of c r1 -> Z.of_nat o <= hw_of c r2 ->
  exists e, nth_error (log_of c r1) o = Some e /\ nth_error (log_of c r2) o = Some e.
Proof.
  intros c r1 r2 o HI H1 H2 Ho1 Ho2. destruct (electable_hold_everything_below_hw c r1 o HI H1 Ho1) as (e1 & A1 & B1).
  destruct (electable_hold_everything_below_hw c r2 o HI H2 Ho2) as (e2 & A2 & B2). exists e1. split; [exact A1|]. congruence.
Qed.
Print Assumptions C02_electable_replicas_identical_below_both_hws.

Theorem C02_lagging_replica_hw_beyond_its_log :
  let c := run true (init_cluster [0; 1; 2]%N 0%N 4%N 1)
             [KPublish 0; KPublish 1; KPublish 2; KFetch 1 3; KFetch 1 0; KShrink 2; KFetch 2 1]%N in
  hw_of c 2%N = 2 /\ length (log_of c 2%N) = 1%nat /\ ~ In 2%N (c_isr c) /\ hw_of c 0%N = 2.
Proof. vm_compute. repeat split; try reflexivity. intros [H|[H|[]]]; discriminate. Qed.
Print Assumptions C02_lagging_replica_hw_beyond_its_log.

(* and what is committed stays committed, at the same offsets, whatever happens next. *)
Theorem C02_committed_survives : forall xs c, Inv c -> prefix (c_committed c) (c_committed (run true c xs)).
Proof. intros xs c HI. apply (run_inv_grows xs c HI). Qed.
Print Assumptions C02_committed_survives.

(* The reconciliation step: with the leader's log ahead only by later epochs, cutting at the
   leader's answer leaves a prefix of the leader's log and keeps everything both had in common. *)
Theorem C02_reconcile_correct : forall r L, chain r L -> mono r ->
  let r' := firstn (Z.to_nat (last_le (last_epoch r) L + 1)) r in
  prefix r' L /\ forall c, prefix c r -> prefix c L -> prefix c r'.
Proof. exact reconcile_correct. Qed.
Print Assumptions C02_reconcile_correct.

(* The leader's answer, computed from its leader-epoch cache, is that offset -- along any life of
   appends (own or replicated), elections and truncations. *)
Theorem C02_epoch_cache_answer : forall ops q, ops_ok ([], []) ops ->
  answer true (snd (crun true ops)) (fst (crun true ops)) q = last_le q (fst (crun true ops)).
Proof. intros ops q Hok. apply answer_is_last_le. unfold crun. apply crun_cinv; [apply cinv_empty|exact Hok]. Qed.
Print Assumptions C02_epoch_cache_answer.

(* not vacuous: a history with two elections, a follower that kept an uncommitted tail, a shrink *)
Example C02_history :
  let c := run true (init_cluster [0; 1; 2]%N 0%N 4%N 2)
             [KPublish 0; KPublish 1; KFetch 1 2; KFetch 2 2; KFetch 1 0; KPublish 2; KElect 1 5; KReconcile 0; KReconcile 2; KPublish 12;
              KFetch 0 3; KFetch 0 0; KShrink 2; KPublish 13; KFetch 0 1; KFetch 0 0; KElect 0 6; KReconcile 1; KPublish 24; KFetch 1 2; KFetch 1 0]%N in
  log_of c 0%N = [(4, 0); (4, 1); (5, 12); (5, 13); (6, 24)]%N /\ log_of c 1%N = log_of c 0%N /\ log_of c 2%N = [(4, 0); (4, 1)]%N /\
  hw_of c 0%N = 4 /\ c_committed c = log_of c 0%N.
Proof. vm_compute. repeat split; reflexivity. Qed.

(* The truncation fallback (truncateUncommitted when the leader-epoch request gets no answer: the
   replica cuts its log at its own HW).  Histories without it are the histories above; the step
   keeps the invariant -- and with it every statement above -- for a replica outside the in-sync
   set and for one whose HW covers everything committed; *)
Theorem C02_histories_without_fallback : forall xs c, frun c (map FBase xs) = run true c xs.
Proof. induction xs as [|x r IH]; intros c; cbn [map frun run fstep_apply]; [reflexivity|]. destruct (step true c x); apply IH. Qed.
Print Assumptions C02_histories_without_fallback.

Theorem C02_fallback_harmless_outside_isr_or_with_current_hw : forall c r, Inv c -> ~ In r (c_synced c) ->
  (~ In r (c_isr c) \/ hw_of c r + 1 = Z.of_nat (length (c_committed c))) -> Inv (fallback c r).
Proof. exact fallback_inv. Qed.
Print Assumptions C02_fallback_harmless_outside_isr_or_with_current_hw.

(* for an in-sync replica whose HW lags it is not: the current code, refuted (open finding; the
   history is replayed on the real server by the driver's fourth corpus history).  Message 0 is
   stored by all three replicas and committed by leader 0 when replica 2 reports it (replica 1's
   last response still carried the HW -1); replica 2 is elected and is gone before it answers;
   replica 1 cuts its log back to its HW, dropping the committed message, and -- still in the
   in-sync set -- is elected. *)
Theorem C02_refuted_hw_truncation_fallback :
  let c := frun (init_cluster [0; 1; 2]%N 0%N 4%N 1)
                [FBase (KPublish 0); FBase (KFetch 1 1); FBase (KFetch 2 1); FBase (KFetch 1 0); FBase (KFetch 2 0);
                 FBase (KElect 2 5); FFallback 1; FBase (KElect 1 6)]%N in
  c_committed c = [(4, 0)]%N /\ c_leader c = 1%N /\ log_of c 1%N = [] /\ committed_lost c = true.
Proof. vm_compute. repeat split; reflexivity. Qed.
Print Assumptions C02_refuted_hw_truncation_fallback.

(* Re-admission to the in-sync set.  The leader's tick (server/replicator.go) adds a replica back
   when it was seen, and at the log end, at some moment within the last max-lag interval.  Adding a
   reconciled replica that holds everything committed keeps the invariant; the time rule admits
   more, and the current code is refuted (open finding; replayed on the real leader with its real
   timers by TestVerifC02ExpandByTime): replica 2 is at the log end when the log holds one message,
   is removed from the in-sync set, two more messages are committed by the two that remain, and
   replica 2 -- seen, and "caught up" a moment ago -- is added again; elected, it leads without the
   two committed messages. *)
Theorem C02_readmission_safe_when_replica_holds_committed : forall c r, Inv c -> In r (c_synced c) ->
  (length (c_committed c) <= length (log_of c r))%nat -> Inv (expand_behind c r).
Proof. exact expand_inv. Qed.
Print Assumptions C02_readmission_safe_when_replica_holds_committed.

Theorem C02_refuted_readmission_by_time :
  let c := frun (init_cluster [0; 1; 2]%N 0%N 4%N 1)
                [FBase (KPublish 0); FBase (KFetch 2 1); FBase (KFetch 2 0); FBase (KShrink 2);
                 FBase (KPublish 1); FBase (KPublish 2); FBase (KFetch 1 3); FBase (KFetch 1 0);
                 FExpandBehind 2; FBase (KElect 2 5)]%N in
  c_committed c = [(4, 0); (4, 1); (4, 2)]%N /\ c_leader c = 2%N /\ log_of c 2%N = [(4, 0)]%N /\ committed_lost c = true.
Proof. vm_compute. repeat split; reflexivity. Qed.
Print Assumptions C02_refuted_readmission_by_time.

(* ... and these two are the only ways out: every history of the extended steps in which each
   fallback is taken outside the in-sync set or with a current HW, and each re-admission is of a
   replica that holds everything committed, keeps the invariant. *)
Theorem C02_guarded_histories_keep_the_invariant : forall xs c, Inv c -> guarded c xs -> Inv (frun c xs).
Proof. intros xs c HI Hg. apply (guarded_histories_grow xs c HI Hg). Qed.
Print Assumptions C02_guarded_histories_keep_the_invariant.

(* The pinned code, refuted twice.  The epoch cache: a leads epoch 4, b takes over at epoch 5 and a
   learns the boundary by replication; a leads epoch 6; asked where epoch 4 ends it answers 2, the
   first offset of epoch 5.  The leader's offset table: it survives the leader's terms. *)
Theorem C02_refuted_epoch_boundary :
  let '(log, c) := crun false [CElect 4; CAppend [(4, 0); (4, 1); (4, 2)]; CTruncate 2; CAppend [(5, 10); (5, 11)]; CElect 6]%N in
  answer false c log 4%N = 2 /\ last_le 4%N log = 1 /\
  (let '(log', c') := crun true [CElect 4; CAppend [(4, 0); (4, 1); (4, 2)]; CTruncate 2; CAppend [(5, 10); (5, 11)]; CElect 6]%N in answer true c' log' 4%N = 1).
Proof. vm_compute. repeat split; reflexivity. Qed.
Print Assumptions C02_refuted_epoch_boundary.

Theorem C02_refuted_stale_offsets :
  let c := run false (init_cluster [0; 1; 2]%N 0%N 4%N 1)
             [KPublish 0; KPublish 1; KPublish 2; KPublish 3; KPublish 4; KPublish 5; KFetch 1 6; KFetch 1 0; KFetch 2 4; KFetch 2 0;
              KElect 2 5; KReconcile 0; KReconcile 1; KPublish 14; KFetch 0 5; KFetch 1 5;
              KElect 0 6; KReconcile 1; KReconcile 2; KPublish 25; KFetch 2 5; KFetch 2 0]%N in
  hw_of c 0%N = 5 /\ length (log_of c 1%N) = 5%nat /\ In 1%N (c_isr c).
Proof. vm_compute. repeat split; auto. Qed.
Print Assumptions C02_refuted_stale_offsets.
