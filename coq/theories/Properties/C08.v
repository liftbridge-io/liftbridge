(* C08 -- Compaction keeps the latest value of every key and changes nothing else. *)
From LB Require Import Base.Prelude Log.Model Log.Retention Log.Compact Log.Proofs Log.Refine Log.CompactProofs Codec.Message.
Open Scope Z_scope.

(* After compaction every record without a key, every record at or above the high watermark,
   every record of the newest segment and the latest committed record of every key is still
   present (for any key extraction function, any HW, any segment layout). *)
Theorem C08_survivors : forall key_of cf hw lo older last r,
  0 <= lo -> older <> [] -> segs_wf lo (older ++ [last]) -> In r (flat (older ++ [last])) ->
  (has_key key_of r = false \/ hw <= r_off r \/ In r (s_recs last) \/
   (cf = false /\ r_off r = latest_for key_of false hw (flat (older ++ [last])) (kstr key_of r))) ->
  In r (flat (compact_segs key_of cf hw (older ++ [last]))).
Proof. exact survivors. Qed.
Print Assumptions C08_survivors.

(* ... where "latest" is what one expects: the highest committed offset carrying that key. *)
Theorem C08_latest_is_max : forall key_of hw all r,
  In r all -> has_key key_of r = true -> r_off r <= hw -> 0 <= r_off r ->
  (forall r', In r' all -> has_key key_of r' = true -> kstr key_of r' = kstr key_of r -> r_off r' <= hw -> r_off r' <= r_off r) ->
  latest_for key_of false hw all (kstr key_of r) = r_off r.
Proof. exact latest_for_is_max. Qed.
Print Assumptions C08_latest_is_max.

(* Each surviving message is unchanged, at its original offset and in its original order: the
   compacted content is a filter of the original content ... *)
Theorem C08_survivors_unchanged : forall key_of cf hw lo older last,
  0 <= lo -> older <> [] -> segs_wf lo (older ++ [last]) ->
  flat (compact_segs key_of cf hw (older ++ [last])) =
  filter (keep key_of cf hw (flat (older ++ [last])) (s_base last)) (flat (older ++ [last])).
Proof. intros key_of cf hw lo older last Hlo _. exact (compact_content key_of cf hw lo older last Hlo). Qed.
Print Assumptions C08_survivors_unchanged.

(* ... and the compacted log is a well-formed log, so forward readers started at any offset
   return exactly the surviving messages from there on (C01_read_is_filter applies). *)
Theorem C08_compacted_log_wf : forall key_of cf hw lo older last,
  0 <= lo -> older <> [] -> segs_wf lo (older ++ [last]) ->
  segs_wf lo (compact_segs key_of cf hw (older ++ [last])).
Proof. intros key_of cf hw lo older last Hlo _. exact (compact_wf key_of cf hw lo older last Hlo). Qed.
Print Assumptions C08_compacted_log_wf.

(* Backwards: a reverse reader started at any offset returns exactly the surviving messages at
   or below it, newest first, down to the stop offset -- on any well-formed log, with or
   without offset gaps (scanner that searches its start entry). *)
Theorem C08_reverse_read : forall l start stop, wf l ->
  match read_reverse true l start true stop with
  | Some rs => rs = take_while_ge stop (rev (filter (le_off start) (all_recs l)))
  | None => newest l < start
  end.
Proof. exact read_reverse_refines. Qed.
Print Assumptions C08_reverse_read.

(* The pinned code.  Bodies: crc, magic, attributes, key, nil value, no headers. *)
Definition body (key : option bytes) : bytes := [0;0;0;0;1;0]%N ++ put_bytes key ++ put_bytes None ++ [0;0]%N.
Definition rk (o : Z) (key : option bytes) : rec := mkRec o (o + 1) 1%N (body key).

(* (1) an empty key shares the scan entry of keyless messages: the latest (only) message with
   the empty key, offset 0, is dropped because the keyless message at offset 2 is "newer" *)
Theorem C08_refuted_empty_key :
  let segs := [mkSeg 0 [rk 0 (Some []); rk 1 (Some [97%N]); rk 2 None]; mkSeg 3 [rk 3 (Some [97%N])]] in
  map r_off (flat (compact_segs key_of true 3 segs)) = [2; 3] /\
  map r_off (flat (compact_segs key_of false 3 segs)) = [0; 2; 3].
Proof. vm_compute. split; reflexivity. Qed.
Print Assumptions C08_refuted_empty_key.

(* (2) the reverse scanner that starts at index (start - base): on a compacted segment holding
   offsets 2,5,8 a reader from 8 skips the segment, a reader from 2 returns 8 5 2 *)
Theorem C08_refuted_reverse_sparse :
  let l := mkLog [mkSeg 0 [rk 2 None; rk 5 None; rk 8 None]; mkSeg 9 [rk 9 None]] 9 [] false in
  option_map (map r_off) (read_reverse false l 8 true (-1)) = Some [] /\
  option_map (map r_off) (read_reverse false l 2 true (-1)) = Some [8; 5; 2] /\
  option_map (map r_off) (read_reverse true l 8 true (-1)) = Some [8; 5; 2] /\
  option_map (map r_off) (read_reverse true l 2 true (-1)) = Some [2].
Proof. vm_compute. repeat split; reflexivity. Qed.
Print Assumptions C08_refuted_reverse_sparse.
