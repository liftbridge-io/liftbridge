(* C01 -- The partition log is a gap-free, ordered, immutable record of what was appended. *)
From LB Require Import Base.Prelude Log.Model Log.Proofs Log.Refine Codec.Message Codec.MessageProofs Log.TailWait Log.TailWaitProofs.
Open Scope Z_scope.

(* Every log reachable by any history of appends, message-set appends that continue the log,
   truncations at any offset, reopen and HW moves -- for every segment limit -- is well
   formed: record offsets strictly increase, within a segment and from one segment to the next. *)
Theorem C01_reachable_wf : forall maxb l, reachable maxb l -> wf l.
Proof. exact reachable_wf. Qed.
Print Assumptions C01_reachable_wf.

(* Append hands out exactly the next consecutive offsets, stores exactly the batch after the
   existing content, and moves the log end by the batch size -- across a segment roll or not. *)
Theorem C01_offsets_consecutive : forall maxb l ms l' offs,
  wf l -> append maxb false l ms = Ok (l', offs) ->
  wf l' /\ all_recs l' = all_recs l ++ number (newest l + 1) ms /\
  offs = zseq (newest l + 1) (length ms) /\ l_hw l' = l_hw l.
Proof.
  intros maxb l ms l' offs Hw H. destruct (append_ok maxb l ms l' offs Hw H) as (H1 & H2 & H3 & H4 & _). auto.
Qed.
Print Assumptions C01_offsets_consecutive.

Theorem C01_log_end_advances : forall maxb l ms l' offs,
  wf l -> append maxb false l ms = Ok (l', offs) -> newest l' = newest l + Z.of_nat (length ms).
Proof. intros maxb l ms l' offs Hw H. apply (append_ok maxb l ms l' offs Hw H). Qed.
Print Assumptions C01_log_end_advances.

(* Each operation changes the readable content exactly as the abstract log says: append adds
   at the end, truncate keeps the records below the offset, reopen and HW moves change nothing. *)
Theorem C01_step_refines_abstract_log : forall maxb l o, wf l -> hop_valid l o ->
  wf (hstep maxb l o) /\ all_recs (hstep maxb l o) = spec_step l (all_recs l) o /\
  l_hw l <= l_hw (hstep maxb l o).
Proof. exact hstep_refines. Qed.
Print Assumptions C01_step_refines_abstract_log.

(* A reader started at any offset returns exactly the retained records with offset >= start,
   in order, with the stored timestamp, epoch and bytes; "not found" iff start is past the end. *)
Theorem C01_read_is_filter : forall l o, wf l ->
  fst (read_uncommitted l o) = filter (ge_off o) (all_recs l) /\
  (snd (read_uncommitted l o) = EndNotFound <-> newest l < o).
Proof. exact read_uncommitted_refines. Qed.
Print Assumptions C01_read_is_filter.

(* The retained content is strictly ordered by offset. *)
Theorem C01_content_sorted : forall l, wf l -> sorted_from 0 (all_recs l).
Proof. exact wf_all_sorted. Qed.
Print Assumptions C01_content_sorted.

(* What is readable at an offset never changes, except that a truncation removes a suffix. *)
Theorem C01_immutable : forall maxb l o x, wf l -> hop_valid l o -> x <= newest l ->
  (forall t, o = HTruncate t -> x < t) ->
  at_off (all_recs (hstep maxb l o)) x = at_off (all_recs l) x.
Proof. exact immutable. Qed.
Print Assumptions C01_immutable.

Theorem C01_truncate_removes_suffix : forall l o, wf l ->
  wf (truncate l o) /\ all_recs (truncate l o) = filter (lt_off o) (all_recs l) /\ l_hw (truncate l o) = l_hw l.
Proof. exact truncate_refines. Qed.
Print Assumptions C01_truncate_removes_suffix.

(* Reading the stored form of a message returns exactly the key, value and headers that were
   stored -- nil and empty distinguished -- for every message within the encoder's own limits. *)
Theorem C01_message_roundtrip : forall m, message_wf m ->
  key_of (encode m) = g_key m /\ value_of (encode m) = g_value m /\ headers_of (encode m) = g_headers m.
Proof. exact message_roundtrip. Qed.
Print Assumptions C01_message_roundtrip.

(* non-vacuity: a concrete history with two rolls, a truncation inside a segment and a reopen *)
Example C01_example :
  let m := mkMsg 5 1%N [1;2;3]%N (-1) in
  let l := fold_left (hstep 70) [HAppend [m; m]; HAppend [m; m; m]; HAppend [m]; HTruncate 4; HReopen; HAppend [m]] new_log in
  map r_off (all_recs l) = [0; 1; 2; 3; 4] /\ map s_base (l_segs l) = [0; 4] /\
  map r_off (fst (read_uncommitted l 2)) = [2; 3; 4].
Proof. vm_compute. repeat split. Qed.

(* ---- a reader that WAITS at the end of the log (Log.TailWait: the wake-up protocol between the
   writers -- appends, rolls by size and by AGE, truncations -- and a blocking uncommitted reader, one
   transition per critical section; the real Reader.ReadMessage loop, held by a verif hook in front
   of segment.waitForData, is compared with it block by block on every run) ----
   For every schedule: a reader registered as a waiter has consumed the whole log, unless the seal of
   its segment -- which wakes it -- is still to come ... *)
Theorem C01_waiting_reader_has_read_everything : forall cap sched,
  let s := trun tcode (tinit cap) sched in
  t_phase (s_rd s) = Parked -> s_pending s <> Some (t_seg (s_rd s)) ->
  t_seg (s_rd s) = last_idx (s_segs s) /\ t_pos (s_rd s) = g_len (nth_sg (s_segs s) (last_idx (s_segs s))).
Proof. exact parked_reader_has_read_everything. Qed.
Print Assumptions C01_waiting_reader_has_read_everything.

Theorem C01_seal_wakes_the_waiters : forall s i, tinv s -> s_pending s = Some i ->
  ~ (t_phase (s_rd (tstep tcode s TSeal)) = Parked /\ t_seg (s_rd (tstep tcode s TSeal)) = i).
Proof. exact seal_wakes. Qed.
Print Assumptions C01_seal_wakes_the_waiters.

(* ... and it never skips a message: it leaves a segment only for the next one and only when it has
   consumed all of it. *)
Theorem C01_reader_leaves_only_consumed_segments : forall s lb, tinv s ->
  t_seg (s_rd (tstep tcode s lb)) <> t_seg (s_rd s) ->
  t_seg (s_rd (tstep tcode s lb)) = S (t_seg (s_rd s)) /\ t_pos (s_rd s) = g_len (nth_sg (s_segs s) (t_seg (s_rd s))).
Proof. exact reader_leaves_only_consumed_segments. Qed.
Print Assumptions C01_reader_leaves_only_consumed_segments.

Theorem C01_wait_invariant_reachable : forall cap sched, tinv (trun tcode (tinit cap) sched).
Proof. intros cap sched. apply trun_inv. apply tinit_inv. Qed.
Print Assumptions C01_wait_invariant_reachable.

(* The pinned commit, refuted: a segment rolled because of its age between the reader's look at the
   segment list and waitForData (the reader parks on a sealed segment with offset 1 in the next one);
   a truncation that leaves the active segment marked sealed, rolled by age later. And half of the
   repair is not enough: with the sealed test alone the reader of a truncated segment skips messages. *)
Theorem C01_pinned_age_roll_refuted :
  tshow (trun (mkTv false false) (tinit 10) [TAppend; TStep; TStep; TRollNew; TSeal; TAppend; TWaitDec])
  = ([(1, true); (1, false)], None, (0%nat, 1, Parked, 1)).
Proof. vm_compute. reflexivity. Qed.
Print Assumptions C01_pinned_age_roll_refuted.

Theorem C01_pinned_truncate_then_age_roll_refuted :
  tshow (trun (mkTv false false) (tinit 10) [TAppend; TAppend; TTruncCopy 1; TStep; TStep; TWaitDec; TRollNew; TSeal; TAppend])
  = ([(1, true); (1, false)], None, (0%nat, 1, Parked, 1)).
Proof. vm_compute. reflexivity. Qed.
Print Assumptions C01_pinned_truncate_then_age_roll_refuted.

Theorem C01_sealed_test_alone_refuted :
  tshow (trun (mkTv true false) (tinit 3) [TAppend; TAppend; TTruncCopy 1; TStep; TStep; TWaitDec; TStep; TAppend; TWaitDec; TStep; TWaitDec; TAppend; TRollNew; TSeal; TAppend; TStep; TStep])
  = ([(3, true); (1, false)], None, (1%nat, 1, Running, 2)).
Proof. vm_compute. reflexivity. Qed.
Print Assumptions C01_sealed_test_alone_refuted.

(* ... and it does not stall: with the writers quiet and no seal outstanding, a reader that is behind the
   end of the log delivers its next message within 4*(number of segments)+2 of its own steps -- it
   neither parks nor spins. (A reader that has consumed everything may spin at the end of a full,
   not yet rolled segment: waitForData returns at once there; that costs CPU, not messages.) *)
Theorem C01_waiting_reader_makes_progress : forall cap sched,
  let s := trun tcode (tinit cap) sched in
  s_pending s = None -> has_data s ->
  exists n, (n <= 4 * length (s_segs s) + 2)%nat /\ t_got (s_rd (riter n s)) = t_got (s_rd s) + 1.
Proof. exact reader_progress. Qed.
Print Assumptions C01_waiting_reader_makes_progress.

(* The only way to go round without delivering or parking is at the end of a full active segment that has
   not been rolled yet: everything the log holds has then been delivered. *)
Theorem C01_spinning_reader_has_read_everything : forall cap sched,
  let s := trun tcode (tinit cap) sched in
  t_waiting (s_rd s) = 2%N -> t_seg (s_rd s) = last_idx (s_segs s) ->
  full (nth_sg (s_segs s) (last_idx (s_segs s))) = true /\
  t_pos (s_rd s) = g_len (nth_sg (s_segs s) (last_idx (s_segs s))).
Proof. exact spinning_reader_has_read_everything. Qed.
Print Assumptions C01_spinning_reader_has_read_everything.
