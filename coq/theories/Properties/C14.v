(* C14 -- No NATS payload can crash or confuse the server.
   This file contains only the property theorems, each closed by [exact] of a lemma from
   Codec.EnvelopeProofs (the refuting input by evaluation), followed by Print Assumptions. *)
From LB Require Import Base.Prelude Codec.Envelope Codec.EnvelopeProofs.

(* Decoding any byte string as any envelope type never panics (bounds-checked code). *)
Theorem C14_total : forall (crc : bytes -> N) (data : bytes) (ty : N),
  check_envelope crc true data ty <> Panic.
Proof. exact check_envelope_total. Qed.
Print Assumptions C14_total.

Theorem C14_replication_response_total : forall (crc : bytes -> N) (data : bytes),
  unmarshal_repl_response crc true data <> Panic.
Proof. exact repl_response_total. Qed.
Print Assumptions C14_replication_response_total.

(* The code of the pinned commit (no bounds check) is refuted by an 8-byte input. *)
Theorem C14_refuted_header_len : forall (crc : bytes -> N),
  check_envelope crc false [185; 14; 67; 180; 0; 255; 0; 0]%N 0%N = Panic.
Proof. intros crc. vm_compute. reflexivity. Qed.
Print Assumptions C14_refuted_header_len.

(* Encoding then decoding returns the same payload, for every payload and type. *)
Theorem C14_roundtrip : forall (crc : bytes -> N) (g : bool) (ty : N) (payload : bytes),
  (ty < 256)%N -> check_envelope crc g (marshal ty payload) ty = Ok payload.
Proof. exact marshal_roundtrip. Qed.
Print Assumptions C14_roundtrip.

Theorem C14_roundtrip_crc : forall (crc : bytes -> N) (g : bool) (ty : N) (payload : bytes),
  (ty < 256)%N -> (crc payload < 256 ^ 4)%N ->
  check_envelope crc g (marshal_crc crc ty payload) ty = Ok payload.
Proof. exact marshal_crc_roundtrip. Qed.
Print Assumptions C14_roundtrip_crc.

(* An accepted byte string is exactly the envelope it encodes. *)
Theorem C14_accepted_is_envelope : forall (crc : bytes -> N) g data ty p,
  check_envelope crc g data ty = Ok p ->
  min_header_len <= length data /\ firstn 4 data = magic /\ nth 4 data 0%N = 0%N /\
  nth 7 data 0%N = ty /\ N.to_nat (nth 5 data 0%N) <= length data /\
  p = skipn (N.to_nat (nth 5 data 0%N)) data /\
  (N.testbit (nth 6 data 0%N) 0 = true ->
     N.to_nat (nth 5 data 0%N) = 12 /\ crc p = be_decode (firstn 4 (skipn 8 data))).
Proof. intros crc g data ty p. exact (check_envelope_cases crc g data ty (Ok p)). Qed.
Print Assumptions C14_accepted_is_envelope.

(* A payload whose optional checksum does not match is rejected. *)
Theorem C14_crc_rejects : forall (crc : bytes -> N) g data ty,
  N.testbit (nth 6 data 0%N) 0 = true ->
  crc (skipn 12 data) <> be_decode (firstn 4 (skipn 8 data)) ->
  forall p, check_envelope crc g data ty <> Ok p.
Proof. exact crc_mismatch_rejected. Qed.
Print Assumptions C14_crc_rejects.

(* Publish path: every byte string is either the decoded envelope or stored verbatim. *)
Theorem C14_envelope_or_raw : forall (crc : bytes -> N) (msg : Type) (pb : bytes -> option msg) data,
  (nats_to_message crc msg pb true data = Raw data) \/
  (exists m p, nats_to_message crc msg pb true data = Envelope m /\
               check_envelope crc true data 0%N = Ok p /\ pb p = Some m).
Proof. exact nats_to_message_cases. Qed.
Print Assumptions C14_envelope_or_raw.

Theorem C14_marshalled_is_decoded : forall (crc : bytes -> N) (msg : Type) (pb : bytes -> option msg) m payload,
  pb payload = Some m -> nats_to_message crc msg pb true (marshal 0%N payload) = Envelope m.
Proof. exact nats_to_message_marshalled. Qed.
Print Assumptions C14_marshalled_is_decoded.
