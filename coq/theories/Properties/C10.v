(* C10 -- A subscription delivers exactly the requested range. *)
From LB Require Import Base.Prelude Log.Model Log.Compact Log.Proofs Log.Refine Log.CompactProofs Log.CommittedProofs Api.Range Api.RangeProofs Log.HwWaitRo Log.HwWaitRoProofs.
From Coq Require Import Sorted.
Open Scope Z_scope.

(* Forward: for every start and stop position, on any well-formed log (dense, compacted with
   offset gaps, trimmed by retention, read-only), the messages delivered are exactly the
   committed retained records between the resolved start and stop, in offset order, each once. *)
Theorem C10_forward_range_exact : forall l sp tp stop, wf l -> oldest l <> -1 ->
  (exists r, In r (all_recs l) /\ r_off r = l_hw l) ->
  resolve_stop l tp = Ok stop -> resolve_start l sp <= l_hw l ->
  (stop = -1 \/ resolve_start l sp <= stop) ->
  fst (subscribe l sp tp false) =
  map r_off (filter (in_fwd_range (resolve_start l sp) (l_hw l) stop) (all_recs l)).
Proof. exact subscribe_forward_exact. Qed.
Print Assumptions C10_forward_range_exact.

(* Reverse: exactly the committed retained records from min(start, HW) down to the stop offset,
   newest first. *)
Theorem C10_reverse_range_exact : forall l sp tp stop, wf l -> l_hw l <> -1 ->
  resolve_stop l tp = Ok stop -> (stop = -1 \/ stop <= resolve_start l sp) ->
  let eff := if (l_hw l <? resolve_start l sp) || (resolve_start l sp =? -1) then l_hw l else resolve_start l sp in
  eff <= newest l ->
  fst (subscribe l sp tp true) = map r_off (rev (filter (in_rev_range eff stop) (all_recs l))).
Proof. exact subscribe_reverse_exact. Qed.
Print Assumptions C10_reverse_range_exact.

(* "In offset order, each once": what a forward subscription delivers is strictly increasing
   (so nothing twice), inside [start, HW] and not beyond the stop offset ... *)
Theorem C10_forward_in_order_each_once : forall l sp tp stop, wf l -> oldest l <> -1 ->
  (exists r, In r (all_recs l) /\ r_off r = l_hw l) ->
  resolve_stop l tp = Ok stop -> resolve_start l sp <= l_hw l ->
  (stop = -1 \/ resolve_start l sp <= stop) ->
  let out := fst (subscribe l sp tp false) in
  StronglySorted Z.lt out /\ NoDup out /\
  Forall (fun o => resolve_start l sp <= o <= l_hw l /\ (stop = -1 \/ o <= stop)) out.
Proof. exact forward_ordered_once. Qed.
Print Assumptions C10_forward_in_order_each_once.

(* ... and what a reverse one delivers is strictly decreasing, at or below the effective start
   and not below the stop offset. *)
Theorem C10_reverse_in_order_each_once : forall l sp tp stop, wf l -> l_hw l <> -1 ->
  resolve_stop l tp = Ok stop -> (stop = -1 \/ stop <= resolve_start l sp) ->
  let eff := if (l_hw l <? resolve_start l sp) || (resolve_start l sp =? -1) then l_hw l else resolve_start l sp in
  eff <= newest l ->
  let out := fst (subscribe l sp tp true) in
  NoDup out /\ StronglySorted Z.lt (rev out) /\ Forall (fun o => o <= eff /\ (stop = -1 \/ stop <= o)) out.
Proof. exact reverse_once. Qed.
Print Assumptions C10_reverse_in_order_each_once.

(* A range whose stop lies before its start in the direction of reading is refused. *)
Theorem C10_empty_range_refused : forall l sp tp stop (rv : bool), resolve_stop l tp = Ok stop -> stop <> -1 ->
  (if rv then resolve_start l sp < stop else stop < resolve_start l sp) ->
  subscribe l sp tp rv = ([], EInvalid).
Proof. exact subscribe_empty_range_refused. Qed.
Print Assumptions C10_empty_range_refused.

(* The committed reader underneath: exactly the retained records in [start, HW]. *)
Theorem C10_committed_reader_window : forall l o, wf l -> o <= l_hw l -> oldest l <> -1 ->
  (exists r, In r (all_recs l) /\ r_off r = l_hw l) ->
  fst (read_committed l o) = filter (in_window o (l_hw l)) (all_recs l).
Proof. exact read_committed_refines. Qed.
Print Assumptions C10_committed_reader_window.

(* non-vacuity: a compacted log {0,2,5 | 6,7}, HW 6; forward from 1 to stop 4 (gone) and
   reverse from 6 down to 2 *)
Example C10_example :
  let r := fun o => mkRec o (100 + o) 1%N [] in
  let l := mkLog [mkSeg 0 [r 0; r 2; r 5]; mkSeg 6 [r 6; r 7]] 6 [] false in
  subscribe l (SOffset 1) (TOffset 4) false = ([2], EStop) /\
  subscribe l (SOffset 6) (TOffset 2) true = ([6; 5; 2], EStop) /\
  subscribe l (STimestamp 103) TCancel false = ([5; 6], EWait) /\
  subscribe l SEarliest (TTimestamp 104) false = ([0; 2], EStop) /\
  subscribe l (SOffset 5) (TOffset 3) false = ([], EInvalid).
Proof. vm_compute. repeat split. Qed.

(* A forward subscription on a read-only partition ends with "end of read-only partition" only when
   the reader has delivered everything the log holds: the step that ends a reader (Log.HwWaitRo, the
   decision of commitLog.waitForHW, compared with the code label by label in C03's check) is taken on
   a read-only log whose HW is at its newest offset, by a reader whose next offset is just above it. *)
Theorem C10_readonly_end_only_at_the_log_end : forall s lb j r r' e, winv s -> nth_error (w_readers s) j = Some r -> n_ended r = None ->
  nth_error (w_readers (wstep wcode s lb)) j = Some r' -> n_ended r' = Some e ->
  e = w_newest s /\ w_ro s = true /\ w_hw s = w_newest s /\ n_next r' = w_newest s + 1.
Proof. exact end_step_sound. Qed.
Print Assumptions C10_readonly_end_only_at_the_log_end.
