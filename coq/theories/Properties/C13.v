(* C13 -- Only one member of a consumer group consumes a partition at a time. *)
From LB Require Import Base.Prelude Api.GroupSlot Api.GroupSlotProofs.

(* For every interleaving of group subscribes (any epochs, same or different consumer ids),
   subscription closes and loop returns: at most one subscription is active. *)
Theorem C13_at_most_one_active : forall evs : list gev, length (active (grun true evs)) <= 1.
Proof. intros evs. apply slot_inv_length, grun_inv. Qed.
Print Assumptions C13_at_most_one_active.

(* A subscriber carrying an older group epoch is refused and leaves everything untouched. *)
Theorem C13_stale_epoch_refused : forall ident st x c e, slot st = Some x -> (e < sb_ep x)%N ->
  gstep ident st (ESub c e) = (st, false).
Proof. exact stale_epoch_refused. Qed.
Print Assumptions C13_stale_epoch_refused.

(* An equal or newer epoch replaces and cancels the current subscriber. *)
Theorem C13_newer_epoch_replaces : forall st x c e, slot_inv st -> slot st = Some x -> (sb_ep x <= e)%N ->
  let st' := fst (gstep true st (ESub c e)) in
  snd (gstep true st (ESub c e)) = true /\ active st' = [nxt st] /\
  slot st' = Some (mkSub (nxt st) c e).
Proof. intros st x c e Hinv Hs He. rewrite (gstep_sub st c e Hinv), Hs. destruct (N.ltb_spec e (sb_ep x)); [lia|repeat split]. Qed.
Print Assumptions C13_newer_epoch_replaces.

(* The pinned code removed the slot by consumer id: c1/5, c1/5 again, the first loop returns,
   then c2 with the OLDER epoch 1 is accepted -- two active subscriptions. *)
Theorem C13_refuted_same_consumer_id :
  length (active (grun false [ESub 1 5; ESub 1 5; EExit 0; ESub 2 1]%N)) = 2.
Proof. vm_compute. reflexivity. Qed.
Print Assumptions C13_refuted_same_consumer_id.

(* The race the tests never schedule: the replaced subscription's loop returns (or its client
   goes away) AFTER the replacement -- the current subscriber and the slot are left alone. *)
Theorem C13_late_cleanup_keeps_current : forall st x i, slot_inv st -> slot st = Some x -> i <> sb_id x ->
  let st' := fst (gstep true st (EExit i)) in
  slot st' = Some x /\ active st' = active st /\
  active (fst (gstep true st (EClose i))) = active st /\ slot (fst (gstep true st (EClose i))) = Some x.
Proof. exact exit_of_other_keeps_current. Qed.
Print Assumptions C13_late_cleanup_keeps_current.

(* With no current subscriber any epoch is accepted, and the newcomer is the only active one. *)
Theorem C13_empty_slot_accepts : forall st c e, slot_inv st -> slot st = None ->
  let st' := fst (gstep true st (ESub c e)) in
  snd (gstep true st (ESub c e)) = true /\ active st' = [nxt st] /\ slot st' = Some (mkSub (nxt st) c e).
Proof. intros st c e Hinv Hs. rewrite (gstep_sub st c e Hinv), Hs. repeat split. Qed.
Print Assumptions C13_empty_slot_accepts.

(* While a partition has a group subscriber, the group epoch it carries never goes back. *)
Theorem C13_slot_epoch_monotone : forall ident st ev x y,
  slot st = Some x -> slot (fst (gstep ident st ev)) = Some y -> (sb_ep x <= sb_ep y)%N.
Proof. exact slot_epoch_monotone. Qed.
Print Assumptions C13_slot_epoch_monotone.

(* After every history the active subscription is the one the slot (GetGroupConsumer) names. *)
Theorem C13_active_is_the_registered_one : forall evs i, In i (active (grun true evs)) ->
  exists x, slot (grun true evs) = Some x /\ sb_id x = i.
Proof. intros evs i. apply slot_inv_active, grun_inv. Qed.
Print Assumptions C13_active_is_the_registered_one.
