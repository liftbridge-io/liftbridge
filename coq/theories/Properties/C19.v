(* C19 -- Telemetry can be switched off and never carries user data. *)
From Coq Require Import List String Bool.
From LB Require Import Generated.Telemetry Api.Telemetry Api.TelemetryProofs.
Import ListNotations.

(* Every way of disabling telemetry -- programmatic config, environment variable, config file --
   resolves the switch to off (tree that honours the environment variable). *)
Theorem C19_disabling_routes_work : forall c,
  c_prog c = Some false \/ (c_prog c = None /\ c_env c = Some false) \/
  (c_prog c = None /\ c_env c = None /\ c_file c = Some false) ->
  resolve true c = false.
Proof. exact disabling_routes_work. Qed.
Print Assumptions C19_disabling_routes_work.

(* The pinned commit: LIFTBRIDGE_TELEMETRY_ENABLED=false alone leaves telemetry on. *)
Theorem C19_refuted_env_route : resolve false (mkCfg None (Some false) None) = true.
Proof. reflexivity. Qed.
Print Assumptions C19_refuted_env_route.

(* With the switch off no request is ever made, whatever sequence of start/tick/stop ... *)
Theorem C19_disabled_no_send : forall gate check evs, gate || check = true ->
  sends (crun gate check false evs) = 0.
Proof. exact disabled_never_sends. Qed.
Print Assumptions C19_disabled_no_send.

(* ... and the current sources do gate the collector, check the switch in Start, and have a
   single path to the only HTTP client in the tree (regenerated from /repo on every run). *)
Theorem C19_source_gates_and_checks :
  gate_in_source = true /\ start_returns_when_disabled = true /\ send_path_in_source = true /\
  only_http_client = true.
Proof. vm_compute. repeat split. Qed.
Print Assumptions C19_source_gates_and_checks.

(* The report contains only the documented fields, computed only from the instance id, the
   version string, runtime.* and the clock. *)
Theorem C19_payload_whitelisted :
  subset payload_keys documented_keys = true /\ subset payload_sources allowed_sources = true /\
  subset send_sources allowed_send_sources = true.
Proof. vm_compute. repeat split. Qed.
Print Assumptions C19_payload_whitelisted.
