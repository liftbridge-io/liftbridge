(* C03 -- Consumers see only committed messages: all of them, once, in order. *)
From LB Require Import Base.Prelude Log.Model Log.Proofs Log.Refine Log.CommittedProofs Log.HwWait Log.HwWaitRo Log.HwWaitRoProofs.
Open Scope Z_scope.

(* Sequential semantics: a committed reader started at or below the HW returns exactly the
   retained records from its start up to the HW -- all of them, once, in order, none above. *)
Theorem C03_reader_returns_exactly_committed : forall l o, wf l -> o <= l_hw l -> oldest l <> -1 ->
  (exists r, In r (all_recs l) /\ r_off r = l_hw l) ->
  fst (read_committed l o) = filter (in_window o (l_hw l)) (all_recs l).
Proof. exact read_committed_refines. Qed.
Print Assumptions C03_reader_returns_exactly_committed.

Theorem C03_never_above_hw_sequential : forall l o r, wf l -> o <= l_hw l -> oldest l <> -1 ->
  (exists x, In x (all_recs l) /\ r_off x = l_hw l) -> In r (fst (read_committed l o)) -> r_off r <= l_hw l.
Proof. exact read_committed_never_above_hw. Qed.
Print Assumptions C03_never_above_hw_sequential.

(* The high watermark never moves backwards (log model and wake-up LTS). *)
Theorem C03_hw_monotone_log : forall l h, wf l ->
  wf (set_hw l h) /\ all_recs (set_hw l h) = all_recs l /\ l_hw l <= l_hw (set_hw l h) /\
  l_hw (set_hw l h) = Z.max (l_hw l) h.
Proof. exact set_hw_refines. Qed.
Print Assumptions C03_hw_monotone_log.

Theorem C03_hw_monotone : forall rc s lb, h_hw s <= h_hw (hstep rc s lb).
Proof. exact hw_monotone. Qed.
Print Assumptions C03_hw_monotone.

(* For EVERY schedule of appends, HW advances, and reader steps (sync / deliver / wait) of any
   number of readers: no reader has been handed a message above the HW ... *)
Theorem C03_never_above_hw : forall s sched r, hinv s -> In r (h_readers (hrun true s sched)) ->
  r_next r - 1 <= h_hw (hrun true s sched).
Proof. intros s sched r Hi Hin. exact (reader_ok_below _ _ (hreach_ok s sched r Hi Hin)). Qed.
Print Assumptions C03_never_above_hw.

(* ... and no wake-up is lost: a reader whose next message is covered by the HW is never
   parked, so its next steps are enabled and deliver that message (progress under fairness). *)
Theorem C03_no_lost_wakeup : forall s sched r, hinv s -> In r (h_readers (hrun true s sched)) ->
  r_next r <= h_hw (hrun true s sched) -> r_parked r = false.
Proof. intros s sched r Hi Hin. exact (reader_ok_covered _ _ (hreach_ok s sched r Hi Hin)). Qed.
Print Assumptions C03_no_lost_wakeup.

Theorem C03_progress_enabled : forall s i r, nth_error (h_readers s) i = Some r -> r_parked r = false -> r_next r <= h_hw s ->
  exists r', nth_error (h_readers (hstep true (hstep true s (HSync i)) (HDeliver i))) i = Some r' /\ r_next r' = r_next r + 1.
Proof. exact progress_enabled. Qed.
Print Assumptions C03_progress_enabled.

(* Without the re-check of the HW under the log lock in waitForHW a wake-up is lost. *)
Theorem C03_refuted_without_recheck :
  let s := hrun false (mkH (-1) (-1) [mkR 0 (-1) false]) [HAppend 1; HSync 0; HSetHW 0; HWait 0] in
  h_hw s = 0 /\ map r_parked (h_readers s) = [true] /\ map r_next (h_readers s) = [0].
Proof. vm_compute. repeat split. Qed.
Print Assumptions C03_refuted_without_recheck.

(* ---- the read-only end of a log (Log.HwWaitRo: the wake-up LTS with SetReadonly and the three-way
   decision of waitForHW; every label is one call into the real commit log and the two are compared
   label by label on every run) ----
   For every schedule of appends, SetReadonly(true/false) (flag store and notification as separate
   steps), HW advances and reader steps: a reader is told "end of read-only log" only when it has
   delivered every message the log held at that moment ... *)
Theorem C03_readonly_end_only_after_everything_was_delivered : forall s sched r e, winv s ->
  In r (w_readers (wrun wcode s sched)) -> n_ended r = Some e -> n_next r = e + 1.
Proof. intros s sched r e Hi Hin. exact (rr_ok_ended _ _ e (wreach_ok s sched r Hi Hin)). Qed.
Print Assumptions C03_readonly_end_only_after_everything_was_delivered.

(* ... where e is what the step that ended the reader recorded: the newest offset of a log that was
   read-only with its HW at that offset. *)
Theorem C03_readonly_end_step : forall s lb j r r' e, winv s -> nth_error (w_readers s) j = Some r -> n_ended r = None ->
  nth_error (w_readers (wstep wcode s lb)) j = Some r' -> n_ended r' = Some e ->
  e = w_newest s /\ w_ro s = true /\ w_hw s = w_newest s /\ n_next r' = w_newest s + 1.
Proof. exact end_step_sound. Qed.
Print Assumptions C03_readonly_end_step.

(* No reader stays parked on a finished read-only log: one that is parked there is about to be
   notified, and the notification leaves nobody parked. *)
Theorem C03_no_reader_parked_on_finished_log : forall s sched r, winv s -> In r (w_readers (wrun wcode s sched)) -> n_parked r = true ->
  w_ro (wrun wcode s sched) = true -> w_hw (wrun wcode s sched) = w_newest (wrun wcode s sched) ->
  w_pending (wrun wcode s sched) = true.
Proof. intros s sched r Hi Hin. exact (rr_ok_parked_finished _ _ (wreach_ok s sched r Hi Hin)). Qed.
Print Assumptions C03_no_reader_parked_on_finished_log.

Theorem C03_readonly_notification_wakes_all : forall s r, winv s -> w_ro s = true -> w_hw s = w_newest s ->
  In r (w_readers (wstep wcode s WRoNotify)) -> n_parked r = false.
Proof. intros s r _. exact (notify_leaves_nobody_parked s r). Qed.
Print Assumptions C03_readonly_notification_wakes_all.

(* never above the HW and no lost wake-up hold of the extended system too, from the initial state of any number of readers *)
Theorem C03_ro_never_above_hw : forall n sched r, In r (w_readers (wrun wcode (winit n) sched)) -> n_next r - 1 <= w_hw (wrun wcode (winit n) sched).
Proof. intros n sched r Hin. exact (rr_ok_below _ _ (wreach_ok _ sched r (winit_inv n) Hin)). Qed.
Print Assumptions C03_ro_never_above_hw.

Theorem C03_ro_no_lost_wakeup : forall n sched r, In r (w_readers (wrun wcode (winit n) sched)) ->
  n_next r <= w_hw (wrun wcode (winit n) sched) -> n_parked r = false.
Proof. intros n sched r Hin. exact (rr_ok_covered _ _ (wreach_ok _ sched r (winit_inv n) Hin)). Qed.
Print Assumptions C03_ro_no_lost_wakeup.

(* Both decisions of waitForHW are needed, in the code's order: with "read-only and caught up" tested
   first, or without "caught up", a reader is told "end" with messages undelivered.
   Decision 2 before decision 1: a message is committed on a read-only log after the reader last looked;
   the reader is told "end" with offset 0 undelivered. *)
Theorem C03_refuted_readonly_check_first :
  map (fun r => (n_next r, n_ended r)) (w_readers (wrun (mkWv true false true) (winit 1) [WAppend 1; WRoFlag true; WRoNotify; WSetHW 0; WWait 0%nat]))
  = [(0, Some 0)].
Proof. vm_compute. reflexivity. Qed.
Print Assumptions C03_refuted_readonly_check_first.

(* Decision 2 without "HW = newest offset": the reader of a read-only log whose second message is not
   committed yet is told "end" after the first. *)
Theorem C03_refuted_readonly_end_below_log_end :
  map (fun r => (n_next r, n_ended r)) (w_readers (wrun (mkWv true true false) (winit 1)
     [WAppend 2; WSetHW 0; WRoFlag true; WRoNotify; WSync 0%nat; WDeliver 0%nat; WWait 0%nat]))
  = [(1, Some 1)].
Proof. vm_compute. reflexivity. Qed.
Print Assumptions C03_refuted_readonly_end_below_log_end.

(* progress in the extended system: a reader that is neither parked nor ended and whose next message is
   covered by the HW delivers it after one look at the HW *)
Theorem C03_ro_progress_enabled : forall s i r, nth_error (w_readers s) i = Some r -> ractive r = true -> n_next r <= w_hw s ->
  exists r', nth_error (w_readers (wstep wcode (wstep wcode s (WSync i)) (WDeliver i))) i = Some r' /\ n_next r' = n_next r + 1.
Proof. exact ro_progress_enabled. Qed.
Print Assumptions C03_ro_progress_enabled.
