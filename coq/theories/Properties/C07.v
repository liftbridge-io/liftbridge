(* C07 -- Partition leadership changes are safe and fenced by epochs. *)
From LB Require Import Base.Prelude Meta.Failover Meta.FailoverProofs.

(* Requests that name a stale leader or leader epoch are refused and change nothing
   (both code variants). *)
Theorem C07_stale_refused : forall clear elig st ev,
  match ev with
  | FReport _ l e _ _ | FShrink _ l e _ | FExpand _ l e _ => l <> leader st \/ e <> lepoch st
  | _ => False
  end -> fstep clear elig st ev = (st, RStale).
Proof. exact stale_refused. Qed.
Print Assumptions C07_stale_refused.

(* Partition and leader epochs only increase; a leader change strictly increases the leader
   epoch, so a leader epoch identifies one leader; any ISR or leader change strictly
   increases the partition epoch (both code variants). *)
Theorem C07_epochs_increase : forall clear elig st ev, epochs_ok st ->
  let st' := fst (fstep clear elig st ev) in
  epochs_ok st' /\ (pepoch st <= pepoch st')%N /\ (lepoch st <= lepoch st')%N /\
  (leader st' <> leader st -> (lepoch st < lepoch st')%N) /\
  (lepoch st' = lepoch st -> leader st' = leader st) /\
  ((isr st' <> isr st \/ leader st' <> leader st) -> (pepoch st < pepoch st')%N).
Proof. exact epochs_monotone. Qed.
Print Assumptions C07_epochs_increase.

(* A new leader is only ever an in-sync replica other than the reported leader, chosen by a
   report that names the current leader and epoch, when MORE than (|ISR|-1)/2 witnesses that
   are in-sync followers are on record -- and the record is emptied by the election. *)
Theorem C07_leader_change_is_safe : forall st ev,
  let st' := fst (fstep true true st ev) in
  leader st' <> leader st ->
  exists r l e i pick, ev = FReport r l e i pick /\ l = leader st /\ e = lepoch st /\
    In (leader st') (isr st) /\
    quorum st < counted true st (add_n r (wit st)) /\ wit st' = [].
Proof. exact leader_change_is_safe. Qed.
Print Assumptions C07_leader_change_is_safe.

(* The record only ever holds replicas that reported the (leader, epoch) pair that is still
   current: it grows only by such a report and is emptied whenever the pair changes, the
   timer expires or the controller loses leadership. *)
Theorem C07_witnesses_report_current_leader : forall st ev,
  let st' := fst (fstep true true st ev) in
  (leader st' = leader st /\ lepoch st' = lepoch st /\
   forall w, In w (wit st') -> In w (wit st) \/
             exists l e i pick, ev = FReport w l e i pick /\ l = leader st /\ e = lepoch st) \/
  wit st' = [].
Proof. exact (witnesses_track_current_leader true). Qed.
Print Assumptions C07_witnesses_report_current_leader.

(* The leader is always in the ISR, which is a subset of the replicas, under requests of the
   form internal callers issue (the replicator never asks to remove the leader). *)
Theorem C07_leader_in_isr_subset_replicas : forall clear elig st ev,
  membership_ok st -> internal_form st ev -> membership_ok (fst (fstep clear elig st ev)).
Proof. exact membership_preserved. Qed.
Print Assumptions C07_leader_in_isr_subset_replicas.

(* The pinned code: witnesses survive a failover and are not checked against the ISR. After b
   and c made b the leader, ONE report against (b, 6) by an id that is not a replica elects c;
   no in-sync follower had reported b. *)
Theorem C07_refuted_stale_and_foreign_witnesses :
  let st := frun false false f_init [FReport 2 1 5 6 2; FReport 3 1 5 6 2]%N in
  leader st = 2%N /\ lepoch st = 6%N /\
  snd (fstep false false st (FReport 9 2 6 7 3)%N) = RElected 3%N /\
  counted true st (add_n 9%N []) = 0.
Proof. vm_compute. repeat split. Qed.
Print Assumptions C07_refuted_stale_and_foreign_witnesses.
