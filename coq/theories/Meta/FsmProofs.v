(* Proofs about the metadata state machine: replay (from nothing, or from a snapshot) followed by
   finishedRecovery rebuilds the state the live servers have. *)
From LB Require Import Base.Prelude Meta.Groups Meta.GroupsProofs Meta.Fsm.
From Coq Require Import ZifyBool Permutation.
Open Scope Z_scope.

Lemma existsb_perm {A} (f : A -> bool) l1 l2 : Permutation l1 l2 -> existsb f l1 = existsb f l2.
Proof.
  induction 1 as [|x l l' _ IH|x y l|l l' l'' _ IH1 _ IH2]; cbn [existsb]; [reflexivity|rewrite IH; reflexivity| |congruence].
  destruct (f x), (f y); reflexivity.
Qed.

Lemma filter_perm {A} (f : A -> bool) l1 l2 : Permutation l1 l2 -> Permutation (filter f l1) (filter f l2).
Proof.
  induction 1 as [|x l l' _ IH|x y l|l l' l'' _ IH1 _ IH2]; cbn [filter]; [constructor| | |eapply Permutation_trans; eassumption].
  - destruct (f x); [constructor; exact IH|exact IH].
  - destruct (f x), (f y); try apply Permutation_refl. constructor.
Qed.

Lemma find_none_perm {A} (f : A -> bool) l1 l2 : Permutation l1 l2 -> find f l1 = None -> find f l2 = None.
Proof.
  intros Hp H. destruct (find f l2) as [x|] eqn:E; [|reflexivity]. apply find_some in E. destruct E as [Hin Hf].
  apply (Permutation_in _ (Permutation_sym Hp)) in Hin. pose proof (find_none f l1 H x Hin). congruence.
Qed.

Section AList.
  Context {A : Type}.
  Implicit Types l : list (N * A).

  Definition keys l : list N := map fst l.
  Definition WF l : Prop := NoDup (keys l).

  Lemma aremove_as_filter k l : aremove k l = filter (fun kv => negb (N.eqb (fst kv) k)) l.
  Proof.
    induction l as [|[a y] r IH]; [reflexivity|]. cbn [aremove filter fst]. destruct (N.eqb a k); cbn [negb]; rewrite IH; reflexivity.
  Qed.

  Lemma alookup_in k l (x : A) : alookup k l = Some x -> In (k, x) l.
  Proof.
    induction l as [|[k' y] r IH]; [discriminate|]. cbn [alookup]. destruct (N.eqb_spec k' k) as [->|Hne].
    - intros [= ->]. left. reflexivity.
    - intros H. right. apply IH. exact H.
  Qed.

  Lemma alookup_none_keys k l : alookup k l = None <-> ~ In k (keys l).
  Proof.
    induction l as [|[k' y] r IH]; [cbn; tauto|]. cbn [alookup keys map fst]. destruct (N.eqb_spec k' k) as [->|Hne].
    - split; [discriminate|]. intros H. exfalso. apply H. left. reflexivity.
    - rewrite IH. unfold keys. split; intros H; [intros [E|E]; [contradiction|apply H; exact E]|intros E; apply H; right; exact E].
  Qed.

  Lemma in_alookup k l (x : A) : WF l -> In (k, x) l -> alookup k l = Some x.
  Proof.
    intros Hw Hin. destruct (alookup k l) as [y|] eqn:E.
    - apply alookup_in in E. f_equal. exact (f_equal snd (NoDup_map_inj fst l (k, y) (k, x) Hw E Hin eq_refl)).
    - apply alookup_none_keys in E. destruct E. exact (in_map fst _ _ Hin).
  Qed.

  Lemma alookup_filter_key (f : N -> bool) k l :
    alookup k (filter (fun kv => f (fst kv)) l) = if f k then alookup k l else None.
  Proof.
    induction l as [|[a y] r IH]; [destruct (f k); reflexivity|]. cbn [filter fst alookup]. destruct (N.eqb_spec a k) as [->|Hn].
    - destruct (f k); [cbn [alookup]; rewrite N.eqb_refl; reflexivity|exact IH].
    - destruct (f a); [cbn [alookup]; destruct (N.eqb_spec a k); [contradiction|]|]; exact IH.
  Qed.

  Lemma alookup_aremove_same k l : alookup k (aremove k l) = None.
  Proof. rewrite aremove_as_filter, (alookup_filter_key (fun a => negb (N.eqb a k))), N.eqb_refl. reflexivity. Qed.

  Lemma alookup_aremove_other k k' l : k <> k' -> alookup k (aremove k' l) = alookup k l.
  Proof.
    intros Hne. rewrite aremove_as_filter, (alookup_filter_key (fun a => negb (N.eqb a k'))).
    destruct (N.eqb_spec k k'); [contradiction|reflexivity].
  Qed.

  Lemma alookup_aset_same k (x : A) l : alookup k (aset k x l) = Some x.
  Proof. unfold aset. cbn [alookup]. rewrite N.eqb_refl. reflexivity. Qed.

  Lemma alookup_aset_other k k' (x : A) l : k <> k' -> alookup k (aset k' x l) = alookup k l.
  Proof.
    intros Hne. unfold aset. cbn [alookup]. destruct (N.eqb_spec k' k) as [->|_]; [contradiction|].
    apply alookup_aremove_other. exact Hne.
  Qed.

  Lemma aremove_filter (f : N * A -> bool) k l : aremove k (filter f l) = filter f (aremove k l).
  Proof. rewrite !aremove_as_filter. apply filter_comm. Qed.

  Lemma aremove_absent k l : alookup k l = None -> aremove k l = l.
  Proof.
    induction l as [|[a y] r IH]; [reflexivity|]. cbn [alookup aremove]. destruct (N.eqb a k); [discriminate|].
    intros H. rewrite IH by exact H. reflexivity.
  Qed.

  Lemma aset_aremove k (x : A) l : aset k x (aremove k l) = aset k x l.
  Proof. unfold aset. rewrite (aremove_absent k (aremove k l)) by apply alookup_aremove_same. reflexivity. Qed.

  Lemma WF_filter (f : N * A -> bool) l : WF l -> WF (filter f l).
  Proof. unfold WF, keys. apply NoDup_map_filter. Qed.

  Lemma WF_aremove k l : WF l -> WF (aremove k l).
  Proof. rewrite aremove_as_filter. apply WF_filter. Qed.

  Lemma WF_aset k (x : A) l : WF l -> WF (aset k x l).
  Proof.
    intros Hw. unfold WF, aset. cbn [keys map fst]. apply NoDup_cons; [|apply WF_aremove; exact Hw].
    apply alookup_none_keys, alookup_aremove_same.
  Qed.

  Lemma bound_aset s k (x : A) l : alookup s (aset k x l) <> None <-> s = k \/ alookup s l <> None.
  Proof.
    destruct (N.eq_dec s k) as [->|Hn]; [rewrite alookup_aset_same; split; [left; reflexivity|discriminate]|].
    rewrite alookup_aset_other by exact Hn. tauto.
  Qed.

  Lemma bound_aremove s k l : alookup s (aremove k l) <> None <-> s <> k /\ alookup s l <> None.
  Proof.
    destruct (N.eq_dec s k) as [->|Hn]; [rewrite alookup_aremove_same; tauto|].
    rewrite alookup_aremove_other by exact Hn. tauto.
  Qed.

  Lemma bound_rebind s k (x y : A) l : alookup k l = Some y -> (alookup s (aset k x l) <> None <-> alookup s l <> None).
  Proof. intros E. rewrite bound_aset. split; [intros [->|H]; [rewrite E; discriminate|exact H]|auto]. Qed.
End AList.

Section AllVals.
  Context {A : Type}.
  Implicit Types (Q : A -> Prop) (l : list (N * A)).

  Definition all_vals Q l : Prop := forall k x, In (k, x) l -> Q x.

  Lemma all_vals_aremove Q k l : all_vals Q l -> all_vals Q (aremove k l).
  Proof. intros H k' y Hin. rewrite aremove_as_filter in Hin. apply filter_In in Hin. apply (H k'), Hin. Qed.

  Lemma all_vals_aset Q k x l : all_vals Q l -> Q x -> all_vals Q (aset k x l).
  Proof. intros H Hx k' y [[= <- <-]|Hin]; [exact Hx|apply (all_vals_aremove Q k l H k' y Hin)]. Qed.

  Lemma all_vals_lookup Q k x l : all_vals Q l -> alookup k l = Some x -> Q x.
  Proof. intros H E. apply (H k), alookup_in, E. Qed.

  Lemma all_vals_impl Q (R : A -> Prop) l : (forall x, Q x -> R x) -> all_vals Q l -> all_vals R l.
  Proof. intros HQR H k x Hin. apply HQR, (H k), Hin. Qed.
End AllVals.

Lemma all_vals_map {A B} (Q : A -> Prop) (R : B -> Prop) (f : A -> B) l : (forall x, Q x -> R (f x)) -> all_vals Q l ->
  all_vals R (map (fun kv => (fst kv, f (snd kv))) l).
Proof. intros Hf H k y Hin. apply in_map_iff in Hin. destruct Hin as ([k0 x] & [= <- <-] & Hin). apply Hf, (H k0), Hin. Qed.

Lemma with_stream_inv c s f c' : with_stream c s f = Some c' ->
  exists st st', alookup s (c_streams c) = Some st /\ f st = Some st' /\ c' = mkCore (aset s st' (c_streams c)) (c_groups c).
Proof.
  unfold with_stream. destruct (alookup s (c_streams c)) as [st|]; [|discriminate]. destruct (f st) as [st'|] eqn:E; [|discriminate].
  intros [= <-]. exists st, st'. split; [reflexivity|split; [exact E|reflexivity]].
Qed.

Lemma with_stream_groups c s f c' : with_stream c s f = Some c' -> c_groups c' = c_groups c.
Proof. intros H. apply with_stream_inv in H. destruct H as (st & st' & _ & _ & ->). reflexivity. Qed.

Definition group_op (o : fop) : bool :=
  match o with FGCreate _ _ _ _ | FJoin _ _ _ | FLeave _ _ | FCoord _ _ | FActivity _ => true | _ => false end.

Lemma group_op_streams v r idx c o c' : apply_core v r idx c o = Some c' -> group_op o = true -> c_streams c' = c_streams c.
Proof.
  destruct o as [s n reps|s|s ps ra|s ps|s ps ro|s p rr|s p rr|s p l|g coord cn ss|g cn ss|g cn|g coord|i]; intros H; try discriminate; intros _; cbn [apply_core] in H.
  - destruct (alookup g (c_groups c)); [discriminate|]. destruct (add_member _ _ _ _ _); try discriminate. injection H as <-. reflexivity.
  - destruct (alookup g (c_groups c)); [|discriminate]. destruct (add_member _ _ _ _ _); try discriminate. injection H as <-. reflexivity.
  - destruct (alookup g (c_groups c)); [|discriminate]. destruct (remove_member _ _ _ _) as [g'| |]; try discriminate. injection H as <-. destruct (g_members g'); reflexivity.
  - destruct (alookup g (c_groups c)) as [gr|]; [|discriminate]. destruct (idx <=? g_epoch (gr_g gr))%N; injection H as <-; reflexivity.
  - injection H as <-. reflexivity.
Qed.

Definition subscribed (g : group) (s : sid) : Prop := exists m, In m (g_members g) /\ In s (m_streams m).

Lemma remove_member_ext np1 np2 g c e : (forall s, subscribed g s -> np1 s = np2 s) ->
  remove_member np1 g c e = remove_member np2 g c e.
Proof.
  intros H. unfold remove_member. destruct (e <? g_epoch g)%N; [reflexivity|].
  destruct (find (fun m => N.eqb (m_id m) c) (g_members g)) as [lv|] eqn:Ef; [|reflexivity].
  apply find_some in Ef. destruct Ef as [Hin _]. f_equal. f_equal. f_equal.
  apply (fold_bal_ext np1 np2 _ (fun s => has_assignment c s (g_owners g))).
  intros s Hs. apply H. exists lv. split; assumption.
Qed.

Lemma subscribed_has_sub g s : subscribed g s <-> has_sub s (g_members g).
Proof.
  unfold subscribed, has_sub. split.
  - intros (m & Hm & Hs). apply existsb_exists. exists m. split; [exact Hm|apply mem_n_in; exact Hs].
  - intros H. apply existsb_exists in H. destruct H as (m & Hm & Hs). exists m. split; [exact Hm|apply mem_n_in; exact Hs].
Qed.

Lemma subscribed_add_member np g c ss e g' s : add_member np g c ss e = GOk g' -> subscribed g' s -> subscribed g s \/ In s ss.
Proof.
  intros H (m & Hm & Hs). destruct (add_member_shape _ _ _ _ _ _ H) as [E _]. rewrite E in Hm. apply in_app_or in Hm.
  destruct Hm as [Hm|[<-|[]]]; [left; exists m; split; assumption|right]. apply in_normal. exact Hs.
Qed.

Lemma subscribed_remove_member np g c e g' s : remove_member np g c e = GOk g' -> subscribed g' s -> subscribed g s.
Proof.
  intros H (m & Hm & Hs). destruct (remove_member_shape _ _ _ _ _ H) as [E _]. rewrite E in Hm. apply filter_In in Hm.
  exists m. split; [apply Hm|exact Hs].
Qed.

Lemma stream_deleted_shape np g s e g' : stream_deleted np g s e = GOk g' ->
  (forall x, subscribed g' x -> subscribed g x /\ x <> s) /\ (g_epoch g' = g_epoch g \/ g_epoch g' = e).
Proof.
  unfold stream_deleted. destruct (e <? g_epoch g)%N; [discriminate|].
  destruct (existsb (subscribes s) (g_members g)) eqn:E; cbn [negb]; intros [= <-].
  - split; [|right; reflexivity]. intros x Hx. apply subscribed_has_sub in Hx.
    destruct (has_sub_strip s x (g_members g) Hx) as [Hn Hx']. split; [apply subscribed_has_sub; exact Hx'|exact Hn].
  - split; [|left; reflexivity]. intros x Hx. split; [exact Hx|]. intros ->. apply subscribed_has_sub in Hx. unfold has_sub in Hx. congruence.
Qed.

Lemma stream_deleted_noop np g s e : ~ subscribed g s -> stream_deleted np g s e = GOk g \/ stream_deleted np g s e = GRefused.
Proof.
  intros H. unfold stream_deleted. destruct (e <? g_epoch g)%N; [right; reflexivity|].
  destruct (existsb (subscribes s) (g_members g)) eqn:E; [|left; reflexivity]. exfalso. apply H, subscribed_has_sub. exact E.
Qed.

Lemma stream_deleted_ext' np1 np2 g s e : (forall x, subscribed g x -> x <> s -> np1 x = np2 x) ->
  stream_deleted np1 g s e = stream_deleted np2 g s e.
Proof.
  intros H. unfold stream_deleted. destruct (e <? g_epoch g)%N; [reflexivity|].
  destruct (negb (existsb (subscribes s) (g_members g))); [reflexivity|]. f_equal. f_equal.
  apply (fold_bal_ext np1 np2 _ (fun _ => true)). intros x Hx. apply in_normal in Hx.
  apply in_concat in Hx. destruct Hx as (l & Hl & Hx). apply in_map_iff in Hl. destruct Hl as (m & <- & Hm).
  apply filter_In in Hm. destruct Hm as [Hm _]. apply filter_In in Hx. destruct Hx as [Hx Hn].
  apply H; [exists m; split; assumption|]. intros ->. rewrite N.eqb_refl in Hn. discriminate.
Qed.

Lemma stream_deleted_ext np1 np2 g s e : (forall x, subscribed g x -> np1 x = np2 x) ->
  stream_deleted np1 g s e = stream_deleted np2 g s e.
Proof. intros H. apply stream_deleted_ext'. intros x Hx _. apply H, Hx. Qed.

(* A replay keeps a deleted stream as a tombstone until finishedRecovery. Below, P is the state of a
   replay and cstrip P, its streams without the tombstones, the state of the live server after the same
   operations. GInv idx, idx being the index of the next operation: no group's epoch has reached idx, so an
   operation that carries its index as epoch is never refused as stale; and groups subscribe to alive
   streams only, so nobody is left to be told when a tombstone is purged or its stream created again. *)
Definition nt (kv : sid * strm) : bool := negb (st_tomb (snd kv)).
Definition cstrip (c : core) : core := mkCore (filter nt (c_streams c)) (c_groups c).

Definition alive (streams : list (sid * strm)) (s : sid) : Prop :=
  exists st, alookup s streams = Some st /\ st_tomb st = false.

Definition GInv (idx : N) (c : core) : Prop :=
  forall g gr, In (g, gr) (c_groups c) ->
    (g_epoch (gr_g gr) < idx)%N /\ forall s, subscribed (gr_g gr) s -> alive (c_streams c) s.

Definition RInv (idx : N) (c : core) : Prop := WF (c_streams c) /\ WF (c_groups c) /\ GInv idx c.

(* the loop of finishedRecovery over the streams l0, on any association list S *)
Definition drop_tombs {A} (l0 : list (sid * strm)) (S : list (sid * A)) : list (sid * A) :=
  fold_left (fun s kv => if st_tomb (snd kv) then aremove (fst kv) s else s) l0 S.

Definition untombed (l0 : list (sid * strm)) (k : sid) : bool :=
  forallb (fun kv' => negb (st_tomb (snd kv') && N.eqb k (fst kv'))) l0.

Lemma drop_tombs_filter {A} l0 (S : list (sid * A)) : drop_tombs l0 S = filter (fun kv => untombed l0 (fst kv)) S.
Proof.
  revert S. induction l0 as [|[k' st'] r IH]; intros S.
  - symmetry. apply filter_all_true. reflexivity.
  - unfold drop_tombs. cbn [fold_left fst snd]. change (fold_left _ r ?x) with (drop_tombs r x). rewrite IH.
    destruct (st_tomb st') eqn:Et; [rewrite aremove_as_filter, filter_and|]; apply filter_ext_in; intros x _;
      unfold untombed; cbn [forallb fst snd]; rewrite Et; reflexivity.
Qed.

Lemma untombed_spec S k : WF S -> untombed S k = match alookup k S with Some st => negb (st_tomb st) | None => true end.
Proof.
  unfold untombed. induction S as [|[a y] r IH]; intros Hw; [reflexivity|]. apply NoDup_cons_iff in Hw. destruct Hw as [Hn Hw].
  cbn [forallb alookup fst snd]. rewrite (IH Hw), (N.eqb_sym k a). destruct (N.eqb_spec a k) as [->|_]; [|rewrite andb_false_r; reflexivity].
  (* the entry for k itself decides: by uniqueness there is no other *)
  change (~ In k (keys r)) in Hn. apply alookup_none_keys in Hn. rewrite Hn, !andb_true_r. reflexivity.
Qed.

Lemma drop_tombs_self S : WF S -> drop_tombs S S = filter nt S.
Proof.
  intros Hw. rewrite drop_tombs_filter. apply filter_ext_in. intros [k st] Hin. cbn [fst].
  rewrite untombed_spec, (in_alookup k S st Hw Hin) by exact Hw. reflexivity.
Qed.

(* the live part and the directories left by finishedRecovery alike: the names that are not tombstoned *)
Lemma drop_tombs_lookup {A} l0 (S : list (sid * A)) s : WF l0 ->
  alookup s (drop_tombs l0 S) = match alookup s l0 with Some st => if st_tomb st then None else alookup s S | None => alookup s S end.
Proof.
  intros Hw. rewrite drop_tombs_filter, (alookup_filter_key (untombed l0)), untombed_spec by exact Hw.
  destruct (alookup s l0) as [st|]; [destruct (st_tomb st)|]; reflexivity.
Qed.

Lemma alookup_strip l s : WF l ->
  alookup s (filter nt l) = match alookup s l with Some st => if st_tomb st then None else Some st | None => None end.
Proof. intros Hw. rewrite <- drop_tombs_self, drop_tombs_lookup by exact Hw. destruct (alookup s l); reflexivity. Qed.

Lemma stream_exists_strip P s : WF (c_streams P) -> stream_exists (cstrip P) s = true -> alive (c_streams P) s.
Proof.
  intros Hw H. unfold stream_exists in H. cbn [cstrip c_streams] in H. rewrite alookup_strip in H by exact Hw.
  destruct (alookup s (c_streams P)) as [st|] eqn:E; [|discriminate]. destruct (st_tomb st) eqn:Et; [discriminate|].
  exists st. split; [exact E|exact Et].
Qed.

Lemma np_agree l s : WF l -> alive l s -> nparts_of (filter nt l) s = nparts_of l s.
Proof. intros Hw (st & E & Ht). unfold nparts_of. rewrite alookup_strip, E, Ht by exact Hw. reflexivity. Qed.

Lemma notify_noop np s e gs : (forall g gr, In (g, gr) gs -> ~ subscribed (gr_g gr) s) -> notify_deleted np s e gs = gs.
Proof.
  intros H. unfold notify_deleted. induction gs as [|[g gr] r IH]; [reflexivity|]. cbn [map fst snd].
  rewrite IH by (intros g' gr' Hin; apply (H g'); right; exact Hin). f_equal. f_equal.
  unfold notify_group. destruct (stream_deleted_noop np (gr_g gr) s e (H g gr (or_introl eq_refl))) as [E|E]; rewrite E; [destruct gr|]; reflexivity.
Qed.

Lemma notify_ext np1 np2 s e gs : (forall g gr x, In (g, gr) gs -> subscribed (gr_g gr) x -> x <> s -> np1 x = np2 x) ->
  notify_deleted np1 s e gs = notify_deleted np2 s e gs.
Proof.
  intros H. unfold notify_deleted. apply map_ext_in. intros [g gr] Hin. cbn [fst snd]. f_equal. unfold notify_group.
  rewrite (stream_deleted_ext' np1 np2) by (intros x Hx Hn; apply (H g gr x Hin Hx Hn)). reflexivity.
Qed.

Lemma notify_group_inv np idx s gr : (g_epoch (gr_g gr) < idx)%N ->
  (g_epoch (gr_g (notify_group np s idx gr)) < idx + 1)%N /\
  forall x, subscribed (gr_g (notify_group np s idx gr)) x -> subscribed (gr_g gr) x /\ x <> s.
Proof.
  intros He. unfold notify_group. destruct (stream_deleted_not_refused np (gr_g gr) s idx) as (g' & Eg); [apply N.lt_le_incl; exact He|]. rewrite Eg. cbn [gr_g].
  destruct (stream_deleted_shape _ _ _ _ _ Eg) as (Hsub & Hep). split; [destruct Hep as [->| ->]; lia|exact Hsub].
Qed.

Lemma keys_notify np s e gs : keys (notify_deleted np s e gs) = keys gs.
Proof. unfold notify_deleted, keys. rewrite map_map. reflexivity. Qed.

Lemma alive_aset_other l s x st : x <> s -> alive l x -> alive (aset s st l) x.
Proof. intros Hn (st0 & E & Ht). exists st0. rewrite alookup_aset_other by exact Hn. split; assumption. Qed.

Lemma alive_aset_keep l s st x : st_tomb st = false -> alive l x -> alive (aset s st l) x.
Proof.
  intros Ht Hx. destruct (N.eq_dec x s) as [->|Hn]; [|apply alive_aset_other; assumption].
  exists st. split; [apply alookup_aset_same|exact Ht].
Qed.

Lemma strip_aset l s st : filter nt (aset s st l) = if st_tomb st then aremove s (filter nt l) else aset s st (filter nt l).
Proof. unfold aset. cbn [filter]. unfold nt at 1. cbn [snd]. rewrite aremove_filter. destruct (st_tomb st); reflexivity. Qed.

Lemma GInv_streams idx P P' : c_groups P' = c_groups P -> (forall x, alive (c_streams P) x -> alive (c_streams P') x) ->
  GInv idx P -> GInv (idx + 1) P'.
Proof.
  intros Hg Ha Hi g gr Hin. rewrite Hg in Hin. destruct (Hi g gr Hin) as [He Hs]. split; [clear - He; lia|]. intros s Hsub. apply Ha. apply Hs. exact Hsub.
Qed.

Lemma GInv_next idx P : GInv idx P -> GInv (idx + 1) P.
Proof. apply GInv_streams; [reflexivity|]. intros x H. exact H. Qed.

Lemma RInv_next idx P : RInv idx P -> RInv (idx + 1) P.
Proof. intros (Hw & Hwg & Hi). split; [exact Hw|split; [exact Hwg|apply GInv_next; exact Hi]]. Qed.

Lemma tomb_not_subscribed idx P s st : GInv idx P -> alookup s (c_streams P) = Some st -> st_tomb st = true ->
  forall g gr, In (g, gr) (c_groups P) -> ~ subscribed (gr_g gr) s.
Proof. intros Hi E Et g gr Hin Hsub. destruct (Hi g gr Hin) as [_ Ha]. destruct (Ha s Hsub) as (st0 & E0 & Ht0). congruence. Qed.

Lemma stream_op_commutes idx P s f L' : RInv idx P ->
  (forall st st', f st = Some st' -> st_tomb st' = st_tomb st) ->
  with_stream (cstrip P) s f = Some L' ->
  exists P', with_stream P s f = Some P' /\ cstrip P' = L' /\ RInv (idx + 1) P'.
Proof.
  intros (Hw & Hwg & Hi) Hf H. apply with_stream_inv in H. destruct H as (st & st' & E & Ef & ->).
  cbn [cstrip c_streams c_groups] in E. rewrite alookup_strip in E by exact Hw.
  destruct (alookup s (c_streams P)) as [st0|] eqn:E0; [|discriminate]. destruct (st_tomb st0) eqn:Et; [discriminate|]. injection E as <-.
  pose proof (Hf st0 st' Ef) as Ht'. rewrite Et in Ht'.
  unfold with_stream. rewrite E0, Ef. eexists. split; [reflexivity|]. split; [|split; [apply WF_aset; exact Hw|split; [exact Hwg|]]].
  - unfold cstrip. cbn [c_streams c_groups]. rewrite strip_aset, Ht'. reflexivity.
  - apply (GInv_streams idx P); [reflexivity| |exact Hi]. intros x. apply alive_aset_keep. exact Ht'.
Qed.

Lemma flag_op_commutes idx P s (b : strm -> bool) (g : strm -> list part) L' : RInv idx P ->
  with_stream (cstrip P) s (fun st => if b st then Some (mkStrm (g st) (st_tomb st)) else None) = Some L' ->
  exists P', with_stream P s (fun st => if b st then Some (mkStrm (g st) (st_tomb st)) else None) = Some P' /\ cstrip P' = L' /\ RInv (idx + 1) P'.
Proof.
  intros HR. apply (stream_op_commutes idx P s _ L' HR). intros st st'. destruct (b st); [|discriminate]. intros [= <-]. reflexivity.
Qed.

Lemma part_op_commutes idx P s p f L' : RInv idx P -> with_part (cstrip P) s p f = Some L' ->
  exists P', with_part P s p f = Some P' /\ cstrip P' = L' /\ RInv (idx + 1) P'.
Proof.
  intros HR. apply (stream_op_commutes idx P s _ L' HR). intros st st'. destruct (valid_pid _ _); [|discriminate].
  destruct (nth_part _ _) as [q|]; [|discriminate]. destruct (f q); [|discriminate]. intros [= <-]. reflexivity.
Qed.

Lemma add_stream_commutes idx P s ps : RInv idx P ->
  cstrip (add_stream P s ps) = add_stream (cstrip P) s ps /\ RInv (idx + 1) (add_stream P s ps).
Proof.
  intros (Hw & Hwg & Hi). split; [|split; [apply WF_aset; exact Hw|split; [exact Hwg|]]].
  - unfold cstrip, add_stream. cbn [c_streams c_groups]. rewrite strip_aset. reflexivity.
  - apply (GInv_streams idx P); [reflexivity| |exact Hi]. intros x. apply alive_aset_keep. reflexivity.
Qed.

Lemma group_op_commutes idx P g gr : RInv idx P -> (g_epoch (gr_g gr) <= idx)%N ->
  (forall s, subscribed (gr_g gr) s -> alive (c_streams P) s) ->
  cstrip (set_group P g gr) = set_group (cstrip P) g gr /\ RInv (idx + 1) (set_group P g gr).
Proof.
  intros (Hw & Hwg & Hi) He Hs. split; [reflexivity|]. split; [exact Hw|]. split; [apply WF_aset; exact Hwg|].
  apply all_vals_aset; [exact (GInv_next idx P Hi)|]. split; [clear - He; lia|exact Hs].
Qed.

(* group create and join: the new member's streams exist in the live part, so they are alive in the replay state *)
Lemma add_member_commutes idx P g0 g coord c ss e L' : RInv idx P -> (e <= idx)%N ->
  forallb (stream_exists (cstrip P)) ss = true -> (forall s, subscribed g0 s -> alive (c_streams P) s) ->
  match add_member (nparts_of (c_streams (cstrip P))) g0 c ss e with GOk g' => Some (set_group (cstrip P) g (mkGrp coord g')) | _ => None end = Some L' ->
  exists P', match add_member (nparts_of (c_streams P)) g0 c ss e with GOk g' => Some (set_group P g (mkGrp coord g')) | _ => None end = Some P' /\
             cstrip P' = L' /\ RInv (idx + 1) P'.
Proof.
  intros HR He Hpre Ha H. pose proof HR as (Hw & _).
  assert (Hss : forall s, In s ss -> alive (c_streams P) s).
  { intros s Hs. apply stream_exists_strip; [exact Hw|]. rewrite forallb_forall in Hpre. apply Hpre. exact Hs. }
  cbn [cstrip c_streams] in H.
  rewrite (add_member_ext _ (nparts_of (c_streams P))) in H by (intros s Hs; apply np_agree; [exact Hw|apply Hss; exact Hs]).
  destruct (add_member (nparts_of (c_streams P)) g0 c ss e) as [g'| |] eqn:Ea; try discriminate. injection H as <-.
  eexists. split; [reflexivity|]. destruct (add_member_shape _ _ _ _ _ _ Ea) as [_ He']. apply group_op_commutes; [exact HR|cbn [gr_g]; rewrite He'; exact He|].
  cbn [gr_g]. intros s Hs. destruct (subscribed_add_member _ _ _ _ _ _ _ Ea Hs) as [Hs'|Hs']; [apply Ha, Hs'|apply Hss, Hs'].
Qed.

Lemma untomb_is_add idx P s st ps : GInv idx P -> alookup s (c_streams P) = Some st -> st_tomb st = true ->
  add_stream (remove_stream P s idx) s ps = add_stream P s ps.
Proof.
  intros Hi E Et. unfold add_stream, remove_stream. cbn [c_streams c_groups].
  rewrite (notify_noop _ _ _ _ (tomb_not_subscribed idx P s st Hi E Et)), aset_aremove. reflexivity.
Qed.

(* a replayed delete tombstones the stream and tells the groups at once; they look only at the other
   streams of the affected members, which have the same partitions with and without tombstones *)
Lemma tombstone_commutes idx P s ps : RInv idx P ->
  let streams' := aset s (mkStrm ps true) (c_streams P) in
  let P' := mkCore streams' (notify_deleted (nparts_of streams') s idx (c_groups P)) in
  cstrip P' = remove_stream (cstrip P) s idx /\ RInv (idx + 1) P'.
Proof.
  intros (Hw & Hwg & Hi) streams' P'.
  assert (Hagree : forall g gr x, In (g, gr) (c_groups P) -> subscribed (gr_g gr) x -> x <> s ->
                   nparts_of (aremove s (filter nt (c_streams P))) x = nparts_of streams' x).
  { intros g gr x Hin Hx Hn. destruct (Hi g gr Hin) as [_ Ha]. unfold nparts_of, streams'.
    rewrite alookup_aremove_other, alookup_aset_other by exact Hn. apply (np_agree (c_streams P) x Hw), Ha, Hx. }
  split; [|split; [|split]].
  - unfold cstrip, remove_stream, P'. cbn [c_streams c_groups]. f_equal; [apply strip_aset|]. symmetry. apply notify_ext. exact Hagree.
  - apply WF_aset. exact Hw.
  - unfold WF, P'. cbn [c_groups]. rewrite keys_notify. exact Hwg.
  - apply all_vals_map with (2 := Hi). intros gr [He Ha]. destruct (notify_group_inv (nparts_of streams') idx s gr He) as [He' Hsub].
    split; [exact He'|]. intros x Hx. destruct (Hsub x Hx) as [Hx' Hn]. apply alive_aset_other; [exact Hn|]. apply Ha. exact Hx'.
Qed.

Lemma step_commutes idx P o L' : RInv idx P -> pre (cstrip P) o = true ->
  apply_core fixed false idx (cstrip P) o = Some L' ->
  exists P', apply_core fixed true idx P o = Some P' /\ cstrip P' = L' /\ RInv (idx + 1) P'.
Proof.
  intros HR Hpre H. pose proof HR as (Hw & Hwg & Hi).
  destruct o as [s n reps|s|s ps ra|s ps|s ps ro|s p r|s p r|s p l|g coord c ss|g c ss|g c|g coord|i]; cbn [apply_core] in H; cbn [apply_core].
  (* FPause .. FReadonly, FShrink .. FLeader *)
  3-5: apply (flag_op_commutes idx P s _ _ L' HR H).
  3-5: apply (part_op_commutes idx P s p _ L' HR H).
  (* FJoin .. FCoord: the group exists in the replay state too, and what it subscribes to is alive *)
  4-6: (cbn [pre cstrip c_groups c_streams] in H, Hpre; destruct (alookup g (c_groups P)) as [gr|] eqn:Eg; [|discriminate];
        destruct (Hi g gr (alookup_in _ _ _ Eg)) as [He Ha]).
  - (* FCreate *) destruct n as [|n]; [discriminate|]. destruct reps as [|b reps]; [discriminate|].
    cbn [cstrip c_streams] in H. rewrite alookup_strip in H by exact Hw.
    destruct (alookup s (c_streams P)) as [st|] eqn:E; [destruct (st_tomb st) eqn:Et; [|discriminate]|]; injection H as <-;
      (eexists; split; [reflexivity|]); [rewrite (untomb_is_add idx P s st _ Hi E Et)|]; apply add_stream_commutes; exact HR.
  - (* FDelete *) cbn [cstrip c_streams] in H. rewrite alookup_strip in H by exact Hw.
    destruct (alookup s (c_streams P)) as [st|] eqn:E; [|discriminate]. destruct (st_tomb st) eqn:Et; [discriminate|]. injection H as <-.
    eexists. split; [reflexivity|]. apply (tombstone_commutes idx P s (st_parts st) HR).
  - (* FGCreate *) cbn [pre] in Hpre. cbn [cstrip c_groups] in H, Hpre. destruct (alookup g (c_groups P)); [discriminate|].
    apply (add_member_commutes idx P new_group g coord c ss 0%N L' HR (N.le_0_l idx) Hpre); [|exact H]. intros s (m & [] & _).
  - (* FJoin *) apply andb_true_iff in Hpre. destruct Hpre as [_ Hpre].
    apply (add_member_commutes idx P (gr_g gr) g (gr_coord gr) c ss idx L' HR (N.le_refl idx) Hpre Ha H).
  - (* FLeave *) rewrite (remove_member_ext _ (nparts_of (c_streams P))) in H by (intros s Hs; apply np_agree; [exact Hw|apply Ha; exact Hs]).
    destruct (remove_member (nparts_of (c_streams P)) (gr_g gr) c idx) as [g'| |] eqn:Er; try discriminate. injection H as <-.
    destruct (remove_member_shape _ _ _ _ _ Er) as [_ He']. eexists. split; [reflexivity|]. destruct (g_members g').
    + split; [reflexivity|]. split; [exact Hw|]. split; [apply WF_aremove; exact Hwg|]. apply all_vals_aremove. exact (GInv_next idx P Hi).
    + apply group_op_commutes; [exact HR|cbn [gr_g]; rewrite He'; apply N.le_refl|]. cbn [gr_g]. intros s Hs. apply Ha. apply (subscribed_remove_member _ _ _ _ _ _ Er Hs).
  - (* FCoord *) destruct (idx <=? g_epoch (gr_g gr))%N; injection H as <-; (eexists; split; [reflexivity|]).
    + split; [reflexivity|apply RInv_next; exact HR].
    + apply group_op_commutes; [exact HR|apply N.le_refl|exact Ha].
  - (* FActivity *) injection H as <-. exists P. split; [reflexivity|]. split; [reflexivity|apply RInv_next; exact HR].
Qed.

Lemma finish_fold e l0 S G :
  (forall kv, In kv l0 -> st_tomb (snd kv) = true -> forall g gr, In (g, gr) G -> ~ subscribed (gr_g gr) (fst kv)) ->
  fold_left (fun acc kv => if st_tomb (snd kv) then remove_stream acc (fst kv) e else acc) l0 (mkCore S G) = mkCore (drop_tombs l0 S) G.
Proof.
  revert S. induction l0 as [|[k st] r IH]; intros S H; [reflexivity|]. unfold drop_tombs. cbn [fold_left fst snd].
  destruct (st_tomb st) eqn:Et.
  - unfold remove_stream. cbn [c_streams c_groups]. rewrite notify_noop by (apply (H (k, st) (or_introl eq_refl) Et)).
    apply IH. intros kv' Hin. apply H. right. exact Hin.
  - apply IH. intros kv' Hin. apply H. right. exact Hin.
Qed.

Theorem finish_is_strip idx e P : RInv idx P -> finish_core e P = cstrip P.
Proof.
  intros (Hw & Hwg & Hi). unfold finish_core. destruct P as [S G]. cbn [c_streams c_groups] in *.
  rewrite finish_fold.
  - rewrite drop_tombs_self by exact Hw. reflexivity.
  - intros [k st] Hin Ht. apply (tomb_not_subscribed idx (mkCore S G) k st Hi (in_alookup k S st Hw Hin) Ht).
Qed.

Lemma idx_S idx n : (idx + N.of_nat (S n) = idx + 1 + N.of_nat n)%N.
Proof. lia. Qed.

Lemma run_commutes ops : forall idx P L, RInv idx P -> valid_run fixed idx (cstrip P) ops = true ->
  run_core fixed false idx (cstrip P) ops = Some L ->
  exists P', run_core fixed true idx P ops = Some P' /\ cstrip P' = L /\ RInv (idx + N.of_nat (length ops)) P'.
Proof.
  induction ops as [|o r IH]; intros idx P L HR Hv H.
  - cbn in *. injection H as <-. exists P. split; [reflexivity|]. split; [reflexivity|]. rewrite N.add_0_r. exact HR.
  - cbn [valid_run run_core] in *. apply andb_true_iff in Hv. destruct Hv as [Hpre Hv].
    destruct (apply_core fixed false idx (cstrip P) o) as [L1|] eqn:E1; [|discriminate].
    destruct (step_commutes idx P o L1 HR Hpre E1) as (P1 & E2 & Hs & HR1). rewrite E2. subst L1.
    cbn [length]. rewrite idx_S. apply (IH (idx + 1)%N P1 L HR1 Hv H).
Qed.

Theorem replay_from idx e P0 ops L : RInv idx P0 ->
  valid_run fixed idx (cstrip P0) ops = true -> run_core fixed false idx (cstrip P0) ops = Some L ->
  exists P, run_core fixed true idx P0 ops = Some P /\ finish_core e P = L.
Proof.
  intros HR Hv H. destruct (run_commutes ops idx P0 L HR Hv H) as (P & E & Hs & HR'). exists P. split; [exact E|].
  rewrite (finish_is_strip _ e P HR'). exact Hs.
Qed.

Lemma RInv_empty : RInv 1 empty_core.
Proof. split; [constructor|]. split; [constructor|]. intros g gr []. Qed.

(* Replaying the whole log into an empty server and finishing recovery rebuilds exactly the
   metadata the live servers have: streams, partitions (replicas, ISR, leaders, epochs, paused and
   read-only flags), consumer groups, members, epochs, assignments. *)
Theorem replay_from_scratch ops L : valid_run fixed 1 empty_core ops = true ->
  run_core fixed false 1 empty_core ops = Some L ->
  exists P, run_core fixed true 1 empty_core ops = Some P /\ finish_core (N.of_nat (length ops)) P = L.
Proof. apply (replay_from 1%N _ empty_core ops L RInv_empty). Qed.

(* What makes Restore give back the state a snapshot was taken of (restore_eqv). part_ok: the flags the
   protobuf records are those of the running partition, Restore setting the latter from the former. MInv:
   members are restored through add_member, which sorts a stream list and drops its duplicates, so the
   lists must have that form already. NoTomb: a snapshot does not record the tombstone mark. *)
Definition part_ok (p : part) : Prop := p_pausedp p = p_paused p /\ p_ro p = p_rop p.
Definition PInv (c : core) : Prop := all_vals (fun st => Forall part_ok (st_parts st)) (c_streams c).
Definition MInv (c : core) : Prop := all_vals (fun gr => members_sorted (gr_g gr)) (c_groups c).
Definition NoTomb (c : core) : Prop := all_vals (fun st => st_tomb st = false) (c_streams c).

Lemma Forall_set_part (Q : part -> Prop) ps i q : Forall Q ps -> Q q -> Forall Q (set_part ps i q).
Proof.
  revert i. induction ps as [|p r IH]; intros i Hf Hq; [destruct i; constructor|]. inversion Hf as [|? ? Hp Hr]; subst.
  destruct i as [|j]; cbn [set_part]; constructor; auto.
Qed.

Lemma nth_part_Forall (Q : part -> Prop) ps i q : Forall Q ps -> nth_part ps i = Some q -> Q q.
Proof.
  revert i. induction ps as [|p r IH]; intros i Hf H; [destruct i; discriminate|]. inversion Hf as [|? ? Hp Hr]; subst.
  destruct i as [|j]; cbn [nth_part] in H; [injection H as <-; exact Hp|apply (IH j); assumption].
Qed.

Lemma Forall_map_parts (Q : part -> Prop) f ids ps : (forall p, Q p -> Q (f p)) -> Forall Q ps -> Forall Q (map_parts f ids ps).
Proof.
  intros Hf. unfold map_parts. apply fold_left_inv. intros acc i Hp.
  destruct (nth_part acc (Z.to_nat i)) as [p|] eqn:E; [|exact Hp]. apply Forall_set_part; [exact Hp|]. apply Hf. apply (nth_part_Forall Q acc _ p Hp E).
Qed.

Lemma new_parts_ok n reps idx : Forall part_ok (new_parts n reps idx).
Proof. unfold new_parts. apply Forall_forall. intros p Hp. apply in_map_iff in Hp. destruct Hp as (i & <- & _). split; reflexivity. Qed.

Lemma PInv_with_stream c s f c' : PInv c ->
  (forall st st', f st = Some st' -> Forall part_ok (st_parts st) -> Forall part_ok (st_parts st')) ->
  with_stream c s f = Some c' -> PInv c'.
Proof.
  intros Hp Hf H. apply with_stream_inv in H. destruct H as (st & st' & E & Ef & ->).
  apply all_vals_aset; [exact Hp|]. apply (Hf st st' Ef), (all_vals_lookup _ _ _ _ Hp E).
Qed.

Lemma PInv_map_parts c s (b : strm -> bool) f (ids : strm -> list Z) c' : PInv c -> (forall p, part_ok p -> part_ok (f p)) ->
  with_stream c s (fun st => if b st then Some (mkStrm (map_parts f (ids st) (st_parts st)) (st_tomb st)) else None) = Some c' -> PInv c'.
Proof.
  intros Hp Hf. apply (PInv_with_stream c s _ c' Hp). intros st st'. destruct (b st); [|discriminate]. intros [= <-] Hst.
  apply Forall_map_parts; assumption.
Qed.

Lemma PInv_with_part c s p f c' : PInv c -> (forall q q', f q = Some q' -> part_ok q -> part_ok q') ->
  with_part c s p f = Some c' -> PInv c'.
Proof.
  intros Hp Hf. apply (PInv_with_stream c s _ c' Hp). intros st st'. destruct (valid_pid _ _); [|discriminate].
  destruct (nth_part _ _) as [q|] eqn:En; [|discriminate]. destruct (f q) as [q'|] eqn:Ef; [|discriminate]. intros [= <-] Hst.
  apply Forall_set_part; [exact Hst|]. apply (Hf q q' Ef), (nth_part_Forall _ _ _ _ Hst En).
Qed.

Lemma PInv_step r idx c o c' : PInv c -> apply_core fixed r idx c o = Some c' -> PInv c'.
Proof.
  intros Hp H. destruct o as [s n reps|s|s ps ra|s ps|s ps ro|s p rr|s p rr|s p l|g coord cn ss|g cn ss|g cn|g coord|i].
  (* FGCreate .. FActivity *)
  9-13: (unfold PInv; rewrite (group_op_streams _ _ _ _ _ _ H eq_refl); exact Hp).
  all: cbn [apply_core] in H.
  (* FShrink .. FLeader: an index that is not new leaves the partition as it is, a new one changes none of the flags *)
  6-8: (refine (PInv_with_part c s p _ c' Hp _ H); intros q q' Hq Hok; destruct (idx <=? p_epoch q)%N; [injection Hq as <-; exact Hok|]).
  - (* FCreate *) destruct n as [|n]; [discriminate|]. destruct reps as [|b reps]; [discriminate|].
    destruct (alookup s (c_streams c)) as [st|]; [destruct (r && st_tomb st); [|discriminate]|]; injection H as <-.
    + apply all_vals_aset; [apply all_vals_aremove; exact Hp|apply new_parts_ok].
    + apply all_vals_aset; [exact Hp|apply new_parts_ok].
  - (* FDelete *) destruct (alookup s (c_streams c)) as [st|] eqn:E; [|discriminate]. destruct r; injection H as <-.
    + apply all_vals_aset; [exact Hp|apply (all_vals_lookup _ _ _ _ Hp E)].
    + apply all_vals_aremove. exact Hp.
  - (* FPause *) apply (PInv_map_parts c s _ _ _ c' Hp) with (2 := H). intros p [H1 H2]. split; [reflexivity|exact H2].
  - (* FResume *) apply (PInv_map_parts c s _ _ _ c' Hp) with (2 := H). intros p Hok. unfold resume_part. destruct (p_paused p); [split; reflexivity|exact Hok].
  - (* FReadonly *) apply (PInv_map_parts c s _ _ _ c' Hp) with (2 := H). intros p [H1 H2]. split; [exact H1|reflexivity].
  - (* FShrink *) destruct (mem_n rr (p_replicas q)); [|discriminate]. injection Hq as <-. exact Hok.
  - (* FExpand *) destruct (mem_n rr (p_replicas q)); [|discriminate]. injection Hq as <-. exact Hok.
  - (* FLeader *) destruct (idx <? p_lepoch q)%N; [discriminate|]. injection Hq as <-. exact Hok.
Qed.

Lemma notify_group_sorted np s e gr : members_sorted (gr_g gr) -> members_sorted (gr_g (notify_group np s e gr)).
Proof.
  intros H. unfold notify_group. destruct (stream_deleted np (gr_g gr) s e) as [g'| |] eqn:E; [|exact H|exact H].
  apply (stream_deleted_sorted np (gr_g gr) s e g' H E).
Qed.

Lemma MInv_step v r idx c o c' : MInv c -> apply_core v r idx c o = Some c' -> MInv c'.
Proof.
  intros Hm H.
  assert (Hnot : forall np e s, MInv (mkCore s (notify_deleted np e idx (c_groups c)))).
  { intros np e s. apply all_vals_map with (2 := Hm). intros gr. apply notify_group_sorted. }
  destruct o as [s n reps|s|s ps ra|s ps|s ps ro|s p rr|s p rr|s p l|g coord cn ss|g cn ss|g cn|g coord|i]; cbn [apply_core] in H.
  (* FPause .. FLeader *)
  3-8: (apply with_stream_groups in H; unfold MInv; rewrite H; exact Hm).
  (* FJoin .. FCoord: the members of the group they change are sorted *)
  4-6: (destruct (alookup g (c_groups c)) as [gr|] eqn:Eg; [|discriminate]; pose proof (all_vals_lookup _ _ _ _ Hm Eg) as Hgr).
  - (* FCreate *) destruct n as [|n]; [discriminate|]. destruct reps as [|b reps]; [discriminate|].
    destruct (alookup s (c_streams c)) as [st|]; [|injection H as <-; exact Hm].
    destruct (r && st_tomb st); [|discriminate]. injection H as <-. apply Hnot.
  - (* FDelete *) destruct (alookup s (c_streams c)) as [st|]; [|discriminate]. destruct r; injection H as <-; [|apply Hnot].
    destruct (v_notify v); [apply Hnot|exact Hm].
  - (* FGCreate *) destruct (alookup g (c_groups c)); [discriminate|]. destruct (add_member _ _ _ _ _) as [g'| |] eqn:Ea; try discriminate. injection H as <-.
    apply all_vals_aset; [exact Hm|]. apply (add_member_sorted _ new_group _ _ _ _) with (2 := Ea). intros m [].
  - (* FJoin *) destruct (add_member _ _ _ _ _) as [g'| |] eqn:Ea; try discriminate. injection H as <-.
    apply all_vals_aset; [exact Hm|]. apply (add_member_sorted _ _ _ _ _ _ Hgr Ea).
  - (* FLeave *) destruct (remove_member _ _ _ _) as [g'| |] eqn:Er; try discriminate. injection H as <-.
    destruct (g_members g'); [apply all_vals_aremove; exact Hm|]. apply all_vals_aset; [exact Hm|].
    apply (remove_member_sorted _ _ _ _ _ Hgr Er).
  - (* FCoord *) destruct (idx <=? g_epoch (gr_g gr))%N; injection H as <-; [exact Hm|].
    apply all_vals_aset; [exact Hm|exact Hgr].
  - (* FActivity *) injection H as <-. exact Hm.
Qed.

(* members as a set: a snapshot lists them in Go's map order *)
Definition gpe (g1 g2 : group) : Prop := Permutation (g_members g1) (g_members g2) /\ g_epoch g1 = g_epoch g2.
Definition geq (a b : gid * grp) : Prop := fst a = fst b /\ gr_coord (snd a) = gr_coord (snd b) /\ gpe (gr_g (snd a)) (gr_g (snd b)).
Definition core_eqv (c1 c2 : core) : Prop := c_streams c1 = c_streams c2 /\ Forall2 geq (c_groups c1) (c_groups c2).

Lemma gpe_refl g : gpe g g.
Proof. split; [apply Permutation_refl|reflexivity]. Qed.

Definition orel {A} (R : A -> A -> Prop) (a b : option A) : Prop :=
  match a, b with
  | Some x, Some y => R x y
  | None, None => True
  | _, _ => False
  end.

Definition grel (a b : gres) : Prop :=
  match a, b with
  | GOk x, GOk y => gpe x y
  | GRefused, GRefused | GNotMember, GNotMember => True
  | _, _ => False
  end.

Lemma add_member_cong np1 np2 g1 g2 c ss e : gpe g1 g2 -> grel (add_member np1 g1 c ss e) (add_member np2 g2 c ss e).
Proof.
  intros [Hm He]. unfold add_member. rewrite He. destruct (e <? g_epoch g2)%N; [exact I|].
  split; cbn [g_members g_epoch]; [apply Permutation_app_tail; exact Hm|reflexivity].
Qed.

Lemma remove_member_cong np1 np2 g1 g2 c e : gpe g1 g2 -> grel (remove_member np1 g1 c e) (remove_member np2 g2 c e).
Proof.
  intros [Hm He]. unfold remove_member. rewrite He. destruct (e <? g_epoch g2)%N; [exact I|].
  destruct (find (fun m => N.eqb (m_id m) c) (g_members g1)) eqn:E1, (find (fun m => N.eqb (m_id m) c) (g_members g2)) eqn:E2.
  - split; cbn [g_members g_epoch]; [apply filter_perm; exact Hm|reflexivity].
  - rewrite (find_none_perm _ _ _ (Permutation_sym Hm) E2) in E1. discriminate.
  - rewrite (find_none_perm _ _ _ Hm E1) in E2. discriminate.
  - exact I.
Qed.

Lemma stream_deleted_cong np1 np2 g1 g2 s e : gpe g1 g2 -> grel (stream_deleted np1 g1 s e) (stream_deleted np2 g2 s e).
Proof.
  intros H. pose proof H as [Hm He]. unfold stream_deleted. rewrite He, (existsb_perm _ _ _ Hm). destruct (e <? g_epoch g2)%N; [exact I|].
  destruct (negb (existsb (subscribes s) (g_members g2))); [exact H|]. split; cbn [g_members g_epoch]; [apply Permutation_map; exact Hm|reflexivity].
Qed.

Lemma alookup_eqv g l1 l2 : Forall2 geq l1 l2 ->
  orel (fun a b => gr_coord a = gr_coord b /\ gpe (gr_g a) (gr_g b)) (alookup g l1) (alookup g l2).
Proof.
  induction 1 as [|[k1 a] [k2 b] r1 r2 (Hk & Hc & Hg) _ IH]; [exact I|]. cbn [fst snd] in *. subst k2. cbn [alookup].
  destruct (N.eqb k1 g); [split; assumption|exact IH].
Qed.

Lemma aremove_eqv g l1 l2 : Forall2 geq l1 l2 -> Forall2 geq (aremove g l1) (aremove g l2).
Proof.
  induction 1 as [|[k1 a] [k2 b] r1 r2 Hg _ IH]; [constructor|]. pose proof Hg as (Hk & _). cbn [fst] in Hk. subst k2. cbn [aremove].
  destruct (N.eqb k1 g); [exact IH|constructor; assumption].
Qed.

Lemma notify_eqv np1 np2 s e l1 l2 : Forall2 geq l1 l2 -> Forall2 geq (notify_deleted np1 s e l1) (notify_deleted np2 s e l2).
Proof.
  induction 1 as [|[k1 a] [k2 b] r1 r2 (Hk & Hc & Hg) _ IH]; [constructor|]. cbn [fst snd] in *. subst k2. unfold notify_deleted. cbn [map fst snd].
  constructor; [|exact IH]. split; [reflexivity|]. cbn [snd]. unfold notify_group.
  pose proof (stream_deleted_cong np1 np2 (gr_g a) (gr_g b) s e Hg) as Hsd.
  destruct (stream_deleted np1 (gr_g a) s e), (stream_deleted np2 (gr_g b) s e); try contradiction; cbn [gr_coord gr_g]; split; assumption.
Qed.

Lemma with_stream_eqv c1 c2 s f : core_eqv c1 c2 -> orel core_eqv (with_stream c1 s f) (with_stream c2 s f).
Proof.
  intros [Hs Hg]. unfold with_stream. rewrite <- Hs. destruct (alookup s (c_streams c1)) as [st|]; [|exact I].
  destruct (f st); [|exact I]. split; [reflexivity|exact Hg].
Qed.

Lemma forallb_exists_eqv c1 c2 ss : c_streams c1 = c_streams c2 -> forallb (stream_exists c1) ss = forallb (stream_exists c2) ss.
Proof. intros H. unfold stream_exists. rewrite H. reflexivity. Qed.

Lemma set_group_eqv c1 c2 g a b : core_eqv c1 c2 -> gr_coord a = gr_coord b -> gpe (gr_g a) (gr_g b) ->
  core_eqv (set_group c1 g a) (set_group c2 g b).
Proof. intros [Hs Hg] Hc Hp. split; [exact Hs|]. constructor; [split; [reflexivity|split; assumption]|apply aremove_eqv; exact Hg]. Qed.

Lemma add_member_eqv np1 np2 c1 c2 g1 g2 g co c ss e : core_eqv c1 c2 -> gpe g1 g2 ->
  orel core_eqv (match add_member np1 g1 c ss e with GOk g' => Some (set_group c1 g (mkGrp co g')) | _ => None end)
                (match add_member np2 g2 c ss e with GOk g' => Some (set_group c2 g (mkGrp co g')) | _ => None end).
Proof.
  intros He Hgp. pose proof (add_member_cong np1 np2 g1 g2 c ss e Hgp) as Hc.
  destruct (add_member np1 g1 c ss e), (add_member np2 g2 c ss e); try contradiction; try exact I.
  apply set_group_eqv; [exact He|reflexivity|exact Hc].
Qed.

Lemma apply_eqv v r idx c1 c2 o : core_eqv c1 c2 -> orel core_eqv (apply_core v r idx c1 o) (apply_core v r idx c2 o).
Proof.
  intros He. pose proof He as [Hs Hg].
  destruct o as [s n reps|s|s ps ra|s ps|s ps ro|s p rr|s p rr|s p l|g coord cn ss|g cn ss|g cn|g coord|i]; cbn [apply_core].
  (* FPause .. FLeader *)
  3-8: apply (with_stream_eqv c1 c2 s _ He).
  (* FGCreate .. FCoord: the group is bound on both sides or on neither *)
  3-6: pose proof (alookup_eqv g _ _ Hg) as Ha.
  4-6: (destruct (alookup g (c_groups c1)) as [gr1|], (alookup g (c_groups c2)) as [gr2|]; try contradiction; [destruct Ha as [Hco Hgp]|exact I]).
  - (* FCreate *) destruct n as [|n]; [exact I|]. destruct reps as [|b reps]; [exact I|]. rewrite <- Hs.
    destruct (alookup s (c_streams c1)) as [st|]; [destruct (r && st_tomb st); [|exact I]|].
    + unfold add_stream, remove_stream. cbn [c_streams c_groups]. rewrite <- Hs. split; [reflexivity|]. apply notify_eqv. exact Hg.
    + unfold add_stream. rewrite <- Hs. split; [reflexivity|exact Hg].
  - (* FDelete *) rewrite <- Hs. destruct (alookup s (c_streams c1)) as [st|]; [|exact I]. destruct r.
    + split; [reflexivity|]. cbn [c_groups]. destruct (v_notify v); [apply notify_eqv|]; exact Hg.
    + unfold remove_stream. rewrite <- Hs. split; [reflexivity|]. apply notify_eqv. exact Hg.
  - (* FGCreate *) destruct (alookup g (c_groups c1)), (alookup g (c_groups c2)); try contradiction; [exact I|].
    apply (add_member_eqv _ _ c1 c2 new_group new_group g coord cn ss 0%N He (gpe_refl _)).
  - (* FJoin *) rewrite <- Hco. apply (add_member_eqv _ _ c1 c2 (gr_g gr1) (gr_g gr2) g _ cn ss idx He Hgp).
  - (* FLeave *) rewrite <- Hco.
    pose proof (remove_member_cong (nparts_of (c_streams c1)) (nparts_of (c_streams c2)) (gr_g gr1) (gr_g gr2) cn idx Hgp) as Hc.
    destruct (remove_member _ (gr_g gr1) cn idx) as [a| |], (remove_member _ (gr_g gr2) cn idx) as [b| |]; try contradiction; try exact I.
    pose proof Hc as [Hm _].
    (* the two member lists are permutations of each other: both empty or neither *)
    destruct (g_members a) eqn:Ea, (g_members b) eqn:Eb.
    + split; [exact Hs|]. apply aremove_eqv. exact Hg.
    + apply Permutation_nil in Hm. discriminate.
    + apply Permutation_sym, Permutation_nil in Hm. discriminate.
    + apply set_group_eqv; [exact He|reflexivity|exact Hc].
  - (* FCoord *) destruct Hgp as [Hm Hep]. rewrite <- Hep. destruct (idx <=? g_epoch (gr_g gr1))%N; [exact He|].
    apply set_group_eqv; [exact He|reflexivity|]. split; [exact Hm|reflexivity].
  - (* FActivity *) exact He.
Qed.

Lemma run_eqv v r ops : forall idx c1 c2, core_eqv c1 c2 -> orel core_eqv (run_core v r idx c1 ops) (run_core v r idx c2 ops).
Proof.
  induction ops as [|o t IH]; intros idx c1 c2 He; cbn [run_core]; [exact He|].
  pose proof (apply_eqv v r idx c1 c2 o He) as Ha.
  destruct (apply_core v r idx c1 o), (apply_core v r idx c2 o); try contradiction; [apply IH; exact Ha|exact I].
Qed.

Lemma restore_part_id p : part_ok p -> restore_part fixed p = p.
Proof. intros [H1 H2]. destruct p. cbn in *. subst. reflexivity. Qed.

Lemma restore_streams_id S : (forall k st, In (k, st) S -> st_tomb st = false /\ Forall part_ok (st_parts st)) ->
  map (fun kv => (fst kv, mkStrm (map (restore_part fixed) (snd kv)) false)) (map (fun kv : sid * strm => (fst kv, st_parts (snd kv))) S) = S.
Proof.
  intros H. rewrite map_map. transitivity (map (fun kv => kv) S); [|apply map_id]. apply map_ext_in. intros [k [ps tb]] Hin.
  destruct (H k _ Hin) as [Ht Hp]. cbn [fst snd st_parts st_tomb] in *. subst tb. f_equal. f_equal.
  transitivity (map (fun p => p) ps); [|apply map_id]. apply map_ext_in. intros p Hin'. apply restore_part_id.
  rewrite Forall_forall in Hp. apply Hp, Hin'.
Qed.

(* what a snapshot of a live state may look like: the members of a group come in any order *)
Definition sgeq (a b : gid * snap_group) : Prop :=
  fst a = fst b /\ sg_coord (snd a) = sg_coord (snd b) /\ sg_epoch (snd a) = sg_epoch (snd b) /\
  Permutation (sg_members (snd a)) (sg_members (snd b)).
Definition snap_of (sn : snapshot) (L : core) : Prop :=
  sn_streams sn = sn_streams (take_snapshot L) /\ Forall2 sgeq (sn_groups sn) (sn_groups (take_snapshot L)).

Lemma snap_of_self L : snap_of (take_snapshot L) L.
Proof.
  split; [reflexivity|]. generalize (sn_groups (take_snapshot L)). intros l. induction l as [|x r IH]; constructor; [|exact IH].
  split; [reflexivity|split; [reflexivity|split; [reflexivity|apply Permutation_refl]]].
Qed.

Lemma restore_groups_eqv np L l1 : MInv L -> Forall2 sgeq l1 (sn_groups (take_snapshot L)) ->
  Forall2 geq (map (fun kv => (fst kv, restore_group np (snd kv))) l1) (c_groups L).
Proof.
  unfold MInv, take_snapshot. cbn [sn_groups]. generalize (c_groups L). intros gs. revert l1.
  induction gs as [|[g gr] r IH]; intros l1 H HF; cbn [map] in HF; inversion HF as [|[g1 sg] y l1' ? Hhd Htl]; subst; [constructor|].
  cbn [map fst snd]. constructor; [|apply IH; [intros g0 gr0 Hin; apply (H g0); right; exact Hin|exact Htl]].
  destruct Hhd as (Hk & Hc & He & Hperm). cbn [fst snd sg_coord sg_epoch sg_members] in *.
  split; [exact Hk|]. split; [exact Hc|]. split; [|exact He]. unfold restore_group. cbn [gr_g g_members].
  (* the members come back in the snapshot's order, each with the stream list it had *)
  rewrite restore_members; [exact Hperm|reflexivity|]. intros m Hi. apply (H g gr (or_introl eq_refl)), (Permutation_in _ Hperm), Hi.
Qed.

(* core_eqv does not compare the assignments: Restore computes them again *)
Lemma restore_eqv sn L : snap_of sn L -> NoTomb L -> PInv L -> MInv L -> core_eqv (restore_core fixed sn) L.
Proof.
  intros [Hss Hsg] Hn Hp Hm. unfold restore_core. rewrite Hss. unfold take_snapshot in *. cbn [sn_streams sn_groups] in *.
  rewrite restore_streams_id by (intros k st Hin; split; [apply (Hn k); exact Hin|apply (Hp k); exact Hin]).
  split; [reflexivity|]. apply restore_groups_eqv; [exact Hm|exact Hsg].
Qed.

Lemma run_app v r a : forall idx c b, run_core v r idx c (a ++ b) =
  match run_core v r idx c a with Some c' => run_core v r (idx + N.of_nat (length a)) c' b | None => None end.
Proof.
  induction a as [|o t IH]; intros idx c b; cbn [app run_core length]; [rewrite N.add_0_r; reflexivity|].
  destruct (apply_core v r idx c o); [|reflexivity]. rewrite IH, idx_S. reflexivity.
Qed.

Lemma valid_app v a : forall idx c b, valid_run v idx c (a ++ b) = true ->
  valid_run v idx c a = true /\ forall c', run_core v false idx c a = Some c' -> valid_run v (idx + N.of_nat (length a)) c' b = true.
Proof.
  induction a as [|o t IH]; intros idx c b H; cbn [app valid_run run_core length] in *.
  - split; [reflexivity|]. intros c' [= <-]. rewrite N.add_0_r. exact H.
  - apply andb_true_iff in H. destruct H as [Hp H]. rewrite Hp. destruct (apply_core v false idx c o) as [d|]; [|discriminate].
    destruct (IH _ d b H) as [H1 H2]. split; [exact H1|]. intros c' Hc. rewrite idx_S. apply H2. exact Hc.
Qed.

Lemma run_invs r ops : forall idx c c', PInv c -> MInv c -> run_core fixed r idx c ops = Some c' -> PInv c' /\ MInv c'.
Proof.
  induction ops as [|o t IH]; intros idx c c' Hp Hm H; cbn [run_core] in H; [injection H as <-; split; assumption|].
  destruct (apply_core fixed r idx c o) as [d|] eqn:E; [|discriminate].
  apply (IH _ d c' (PInv_step r idx c o d Hp E) (MInv_step fixed r idx c o d Hm E) H).
Qed.

Lemma alive_strip l s : WF l -> alive l s -> alive (filter nt l) s.
Proof. intros Hw (st & E & Ht). exists st. rewrite alookup_strip, E, Ht by exact Hw. split; reflexivity. Qed.

Lemma RInv_strip idx P : RInv idx P -> RInv idx (cstrip P) /\ NoTomb (cstrip P).
Proof.
  intros (Hw & Hwg & Hi). split; [split; [apply WF_filter; exact Hw|split; [exact Hwg|]]|].
  - apply all_vals_impl with (2 := Hi). intros gr [He Ha]. split; [exact He|]. intros s Hs. apply alive_strip; [exact Hw|]. apply Ha, Hs.
  - intros k st Hin. apply filter_In in Hin. destruct Hin as [_ H]. unfold nt in H. cbn [snd] in H.
    destruct (st_tomb st); [discriminate|reflexivity].
Qed.

Lemma strip_notomb c : NoTomb c -> cstrip c = c.
Proof.
  intros H. destruct c as [S G]. unfold cstrip. cbn [c_streams c_groups] in *. f_equal. apply filter_all_true. intros [k st] Hin.
  unfold nt. cbn [snd]. rewrite (H k st Hin). reflexivity.
Qed.

Lemma finish_eqv e c1 c2 : core_eqv c1 c2 -> core_eqv (finish_core e c1) (finish_core e c2).
Proof.
  intros He. unfold finish_core. rewrite (proj1 He). generalize (c_streams c2). intros l. revert c1 c2 He.
  induction l as [|kv l IH]; intros c1 c2 He; [exact He|]. cbn [fold_left]. apply IH. destruct (st_tomb (snd kv)); [|exact He].
  destruct He as [Hs Hg]. unfold remove_stream. rewrite Hs. split; [reflexivity|apply notify_eqv; exact Hg].
Qed.

Lemma live_state_invs ops L : valid_run fixed 1 empty_core ops = true -> run_core fixed false 1 empty_core ops = Some L ->
  RInv (1 + N.of_nat (length ops)) L /\ NoTomb L /\ PInv L /\ MInv L.
Proof.
  intros Hv H. destruct (run_commutes ops 1%N empty_core L RInv_empty Hv H) as (P & _ & Hs & HR).
  destruct (RInv_strip _ _ HR) as [HRL Hn]. rewrite Hs in HRL, Hn.
  destruct (run_invs false ops 1%N empty_core L) as [Hp Hm]; [intros k st []|intros g gr []|exact H|].
  split; [exact HRL|split; [exact Hn|split; assumption]].
Qed.

(* A replay that starts from Li itself ends at Ln (replay_from); the restored state agrees with Li up to
   assignments, so it takes the same steps (run_eqv) and finishes alike (finish_eqv). *)
Theorem restart_from idx e Li Ln sn ops : RInv idx Li -> NoTomb Li -> PInv Li -> MInv Li -> snap_of sn Li ->
  valid_run fixed idx Li ops = true -> run_core fixed false idx Li ops = Some Ln ->
  exists P, run_core fixed true idx (restore_core fixed sn) ops = Some P /\ core_eqv (finish_core e P) Ln.
Proof.
  intros HR Hn Hp Hm Hsn Hv H. rewrite <- (strip_notomb Li Hn) in Hv, H.
  destruct (replay_from idx e Li ops Ln HR Hv H) as (P0 & E0 & HF).
  pose proof (run_eqv fixed true ops idx _ _ (restore_eqv sn Li Hsn Hn Hp Hm)) as He. rewrite E0 in He.
  destruct (run_core fixed true idx (restore_core fixed sn) ops) as [P|]; [|contradiction].
  exists P. split; [reflexivity|]. rewrite <- HF. apply finish_eqv. exact He.
Qed.

(* A server rebuilt from the snapshot taken after the first i operations plus a replay of the
   rest, followed by finishedRecovery, has the metadata of the live servers: the same streams,
   partitions, replicas, ISR, leaders, epochs, paused and read-only flags, and the same groups
   with the same coordinator, members and epoch. *)
Theorem snapshot_restart ops i Li Ln sn : (i <= length ops)%nat ->
  valid_run fixed 1 empty_core ops = true ->
  run_core fixed false 1 empty_core (firstn i ops) = Some Li ->
  run_core fixed false 1 empty_core ops = Some Ln ->
  snap_of sn Li ->
  exists P, run_core fixed true (N.of_nat i + 1) (restore_core fixed sn) (skipn i ops) = Some P /\
            core_eqv (finish_core (N.of_nat (length ops)) P) Ln.
Proof.
  intros Hi Hv HLi HLn Hsn. rewrite <- (firstn_skipn i ops) in Hv, HLn.
  destruct (valid_app _ _ _ _ _ Hv) as [Hv1 Hv2]. specialize (Hv2 Li HLi). rewrite run_app, HLi in HLn.
  destruct (live_state_invs _ _ Hv1 HLi) as (HR & Hn & Hp & Hm).
  rewrite (firstn_length_le ops Hi), (N.add_comm 1) in HR, Hv2, HLn.
  apply (restart_from _ _ Li Ln sn _ HR Hn Hp Hm Hsn Hv2 HLn).
Qed.

Lemma apply_disk_keeps idx d o s g : alookup s d = Some g -> g <> 0%N -> alookup s (apply_disk true idx d o) = Some g.
Proof.
  intros E Hg. destruct o; cbn [apply_disk]; try exact E.
  destruct (alookup s0 d) as [[|p]|] eqn:E0; [|exact E|]; (rewrite alookup_aset_other; [exact E|]; intros ->; congruence).
Qed.

Lemma run_disk_keeps ops : forall idx m m' s g, run fixed true idx m ops = Some m' ->
  alookup s (mt_disk m) = Some g -> g <> 0%N -> alookup s (mt_disk m') = Some g.
Proof.
  induction ops as [|o t IH]; intros idx m m' s g H E Hg; cbn [run] in H; [injection H as <-; exact E|].
  unfold apply in H. destruct (apply_core fixed true idx (mt_core m) o) as [c'|]; [|discriminate].
  apply (IH _ _ m' s g H); [apply apply_disk_keeps; assumption|exact Hg].
Qed.

Lemma restore_disk_keeps sn d s g : alookup s d = Some g -> alookup s (restore_disk sn d) = Some g.
Proof.
  unfold restore_disk. apply (fold_left_inv _ (fun d => alookup s d = Some g)). clear d. intros d [k ps] E.
  cbn [fst]. destruct (alookup k d) eqn:E2; [exact E|]. rewrite alookup_aset_other; [exact E|]. intros ->. congruence.
Qed.

Lemma finish_disk_lookup c d s : WF (c_streams c) ->
  alookup s (finish_disk c d) =
  match alookup s (c_streams c) with Some st => if st_tomb st then None else alookup s d | None => alookup s d end.
Proof. apply drop_tombs_lookup. Qed.

(* Replay never deletes or replaces the data of a stream that exists at the end of the log:
   whatever directory with data the server had when it stopped is still there, untouched. *)
Theorem replay_keeps_data ops idx m0 P e s g : run fixed true idx m0 ops = Some P -> WF (mt_streams P) ->
  alive (mt_streams P) s -> alookup s (mt_disk m0) = Some g -> g <> 0%N ->
  alookup s (mt_disk (finish e P)) = Some g.
Proof.
  intros H Hw (st & E & Ht) Ed Hg. unfold finish. cbn [mt_disk]. rewrite finish_disk_lookup by exact Hw.
  unfold mt_streams in E. rewrite E, Ht. apply (run_disk_keeps ops idx m0 P s g H Ed Hg).
Qed.

Definition creates (s : sid) (o : fop) : bool := match o with FCreate s' _ _ => N.eqb s' s | _ => false end.
Definition covered (d : list (sid * N)) (c : core) (ops : list fop) : Prop :=
  forall s, alookup s d <> None -> alookup s (c_streams c) <> None \/ existsb (creates s) ops = true.

(* which names a step binds, in the stream map and on disk alike *)
Definition bound_after (r : bool) (o : fop) (s : sid) (before : Prop) : Prop :=
  match o with
  | FCreate k _ _ => s = k \/ before
  | FDelete k => if r then before else s <> k /\ before
  | _ => before
  end.

Lemma bound_after_mono r o s (A B : Prop) : (A -> B) -> bound_after r o s A -> bound_after r o s B.
Proof.
  intros H. destruct o; cbn [bound_after]; try exact H.
  - intros [E|HA]; [left; exact E|right; apply H, HA].
  - destruct r; [exact H|]. intros [Hn HA]. split; [exact Hn|apply H, HA].
Qed.

Lemma bound_after_origin r o s (A : Prop) : bound_after r o s A -> A \/ creates s o = true.
Proof.
  destruct o; cbn [bound_after creates]; auto; [|destruct r; tauto].
  intros [->|H]; [right; apply N.eqb_refl|left; exact H].
Qed.

Lemma bound_after_covered r o s (A : Prop) b : bound_after r o s (A \/ creates s o || b = true) -> bound_after r o s A \/ b = true.
Proof.
  destruct o; cbn [bound_after creates orb]; try exact (fun H => H).
  - destruct (N.eqb_spec s0 s) as [->|_]; cbn [orb]; [left; left; reflexivity|]. intros [H|[H|H]]; [left; left; exact H|left; right; exact H|right; exact H].
  - destruct r; [exact (fun H => H)|]. intros [Hn [H|H]]; [left; split; assumption|right; exact H].
Qed.

Lemma keys_step v r idx c o c' s : apply_core v r idx c o = Some c' ->
  (alookup s (c_streams c') <> None <-> bound_after r o s (alookup s (c_streams c) <> None)).
Proof.
  intros H.
  destruct o as [k n reps|k|k ps ra|k ps|k ps ro|k p rr|k p rr|k p l|g coord cn ss|g cn ss|g cn|g coord|i]; cbn [bound_after].
  (* FGCreate .. FActivity, then FPause .. FLeader *)
  9-13: (rewrite (group_op_streams _ _ _ _ _ _ H eq_refl); reflexivity).
  3-8: (apply with_stream_inv in H; destruct H as (st & st' & E & _ & ->); apply (bound_rebind _ _ _ _ _ E)).
  - (* FCreate *) cbn [apply_core] in H. destruct n; [discriminate|]. destruct reps; [discriminate|]. destruct (alookup k (c_streams c)) as [st|] eqn:E.
    + destruct (r && st_tomb st); [|discriminate]. injection H as <-. cbn [add_stream remove_stream c_streams].
      rewrite aset_aremove. apply bound_aset.
    + injection H as <-. apply bound_aset.
  - (* FDelete *) cbn [apply_core] in H. destruct (alookup k (c_streams c)) as [st|] eqn:E; [|discriminate]. destruct r; injection H as <-.
    + apply (bound_rebind _ _ _ _ _ E).
    + apply bound_aremove.
Qed.

Lemma disk_step r idx d o s : alookup s (apply_disk r idx d o) <> None <-> bound_after r o s (alookup s d <> None).
Proof.
  destruct o; cbn [apply_disk bound_after]; try reflexivity.
  - destruct (alookup s0 d) as [[|p]|] eqn:E; [apply bound_aset| |apply bound_aset].
    split; [intros H; right; exact H|intros [->|H]; [rewrite E; discriminate|exact H]].
  - destruct r; [reflexivity|apply bound_aremove].
Qed.

Lemma covered_run v r ops : forall idx m P, run v r idx m ops = Some P -> covered (mt_disk m) (mt_core m) ops ->
  forall s, alookup s (mt_disk P) <> None -> alookup s (mt_streams P) <> None.
Proof.
  induction ops as [|o t IH]; intros idx m P H Hc s Hs; cbn [run] in H.
  - injection H as <-. destruct (Hc s Hs) as [H|H]; [exact H|discriminate].
  - unfold apply in H. destruct (apply_core v r idx (mt_core m) o) as [c'|] eqn:E; [|discriminate].
    apply (IH _ _ P H); [|exact Hs]. intros x Hx. cbn [mt_disk mt_core] in *.
    apply disk_step in Hx. apply (bound_after_mono _ _ _ _ _ (Hc x)), bound_after_covered in Hx.
    destruct Hx as [Hx|Hx]; [left; apply (keys_step _ _ _ _ _ _ x E); exact Hx|right; exact Hx].
Qed.

(* Replay leaves no directory behind for a stream that does not exist at the end, provided every
   directory present at the restart names a stream of the restored state or one that a replayed
   operation creates (covered). *)
Theorem replay_leaves_no_orphans ops idx m0 P e s : run fixed true idx m0 ops = Some P -> WF (mt_streams P) ->
  covered (mt_disk m0) (mt_core m0) ops ->
  alookup s (mt_disk (finish e P)) <> None -> alive (mt_streams P) s.
Proof.
  intros H Hw Hc Hs. unfold finish in Hs. cbn [mt_disk] in Hs. rewrite finish_disk_lookup in Hs by exact Hw.
  unfold mt_streams. destruct (alookup s (c_streams (mt_core P))) as [st|] eqn:E.
  - destruct (st_tomb st) eqn:Et; [contradiction|]. exists st. split; [exact E|exact Et].
  - exfalso. apply (covered_run fixed true ops idx m0 P H Hc s Hs). exact E.
Qed.

Lemma run_core_of_run v r ops : forall idx m m', run v r idx m ops = Some m' -> run_core v r idx (mt_core m) ops = Some (mt_core m').
Proof.
  induction ops as [|o t IH]; intros idx m m' H; cbn [run run_core] in *; [injection H as <-; reflexivity|].
  unfold apply in H. destruct (apply_core v r idx (mt_core m) o) as [c'|]; [|discriminate]. apply (IH _ _ m') in H. exact H.
Qed.

Lemma keys_origin v r ops : forall idx c c' s, run_core v r idx c ops = Some c' ->
  alookup s (c_streams c') <> None -> alookup s (c_streams c) <> None \/ existsb (creates s) ops = true.
Proof.
  induction ops as [|o t IH]; intros idx c c' s H Hs; cbn [run_core] in H; [injection H as <-; left; exact Hs|].
  destruct (apply_core v r idx c o) as [d|] eqn:E; [|discriminate]. cbn [existsb].
  destruct (IH _ d c' s H Hs) as [Hd|Hex]; [|right; rewrite Hex; apply orb_true_r].
  apply (keys_step _ _ _ _ _ _ s E), bound_after_origin in Hd. destruct Hd as [Hd|Hd]; [left; exact Hd|right; rewrite Hd; reflexivity].
Qed.

Lemma restore_disk_origin v sn d s : alookup s (restore_disk sn d) <> None ->
  alookup s d <> None \/ alookup s (c_streams (restore_core v sn)) <> None.
Proof.
  unfold restore_disk, restore_core. cbn [c_streams]. generalize (sn_streams sn). intros l. revert d.
  induction l as [|[k ps] r IH]; intros d H; [left; exact H|]. cbn [fold_left fst] in H.
  destruct (IH _ H) as [Hd|Hr].
  - destruct (alookup k d) eqn:E; [left; exact Hd|]. destruct (N.eq_dec s k) as [->|Hn]; [right; cbn [map alookup fst]; rewrite N.eqb_refl; discriminate|].
    rewrite alookup_aset_other in Hd by exact Hn. left. exact Hd.
  - right. cbn [map alookup fst]. destruct (N.eqb k s); [discriminate|exact Hr].
Qed.

(* the hypothesis of replay_leaves_no_orphans holds for the disk of a server that had applied a prefix of the log *)
Theorem prefix_disk_covered ops i m Li Lm : (i <= m)%nat -> (m <= length ops)%nat ->
  run fixed false 1 empty_meta (firstn i ops) = Some Li ->
  run fixed false 1 empty_meta (firstn m ops) = Some Lm ->
  covered (restore_disk (take_snapshot (mt_core Li)) (mt_disk Lm)) (restore_core fixed (take_snapshot (mt_core Li))) (skipn i ops).
Proof.
  intros Him Hm HLi HLm s Hs. apply (restore_disk_origin fixed) in Hs. destruct Hs as [Hd|Hsn]; [|left; exact Hsn].
  (* a directory left by the prefix: its stream exists after m operations *)
  assert (Hst : alookup s (mt_streams Lm) <> None).
  { apply (covered_run fixed false (firstn m ops) 1%N empty_meta Lm HLm); [intros x Hx; cbn in Hx; contradiction|exact Hd]. }
  apply run_core_of_run in HLi, HLm. rewrite (firstn_split i m ops Him Hm), run_app in HLm. cbn [mt_core empty_meta] in *. rewrite HLi in HLm.
  destruct (keys_origin _ _ _ _ _ _ s HLm Hst) as [Hin|Hex].
  - (* it existed after i operations: the snapshot and the restored state have the names of the state *)
    left. revert Hin. unfold restore_core, take_snapshot. cbn [c_streams sn_streams]. rewrite !alookup_none_keys. unfold keys. rewrite !map_map.
    exact (fun H => H).
  - right. apply existsb_exists in Hex. destruct Hex as (o & Hin & Ho). apply existsb_exists. exists o. split; [|exact Ho].
    apply (In_firstn o (m - i) (skipn i ops)). exact Hin.
Qed.
