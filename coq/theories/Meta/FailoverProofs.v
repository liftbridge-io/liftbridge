(* What one step of the failover model can do (foutcome), and the C07 theorems read off it. *)
From LB Require Import Base.Prelude Meta.Failover.

Lemma mem_in x l : mem x l = true <-> In x l.
Proof. apply existsb_eqb_in. Qed.

Lemma in_remove_n x y l : In x (remove_n y l) <-> In x l /\ x <> y.
Proof. apply in_filter_neqb. Qed.

Lemma in_add_n x y l : In x (add_n y l) <-> In x l \/ x = y.
Proof.
  unfold add_n. destruct (mem y l) eqn:E.
  - apply mem_in in E. split; [auto|]. intros [H| ->]; assumption.
  - rewrite in_app_iff. cbn. split; [intros [H|[H|[]]]; auto|intros [H|H]; auto].
Qed.

Lemma choose_in st pick c : choose st pick = Some c -> In c (isr st) /\ c <> leader st.
Proof.
  unfold choose. destruct (mem pick (candidates st)) eqn:Em.
  - destruct (candidates st) as [|c0 r] eqn:E; [discriminate|]. intros [= <-].
    apply in_remove_n. fold (candidates st). rewrite E. apply mem_in. exact Em.
  - destruct (candidates st) as [|c0 r] eqn:E; [discriminate|]. intros [= <-].
    apply in_remove_n. fold (candidates st). rewrite E. left. reflexivity.
Qed.

Lemma current_spec st l e :
  negb (N.eqb l (leader st) && N.eqb e (lepoch st)) = false <-> l = leader st /\ e = lepoch st.
Proof. rewrite negb_false_iff, andb_true_iff, !N.eqb_eq. reflexivity. Qed.

Definition epochs_ok (st : fstate) : Prop := (lepoch st <= pepoch st)%N /\ (pepoch st <= ridx st)%N.

Definition membership_ok (st : fstate) : Prop :=
  In (leader st) (isr st) /\ (forall x, In x (isr st) -> In x (replicas st)).

(* requests of the form internal callers issue: the replicator never asks to remove the leader *)
Definition internal_form (st : fstate) (ev : fev) : Prop :=
  match ev with
  | FShrink r _ _ _ => r <> leader st
  | _ => True
  end.

Definition reported (st : fstate) (ev : fev) (w : list N) : Prop :=
  forall x, In x w -> In x (wit st) \/ exists i pick, ev = FReport x (leader st) (lepoch st) i pick.

(* a CHANGE_LEADER found already applied answers RElected with the old leader *)
Definition no_election (st : fstate) (res : fres) : Prop :=
  match res with RElected c => c = leader st | _ => True end.

Inductive foutcome (clear elig : bool) (st : fstate) (ev : fev) : fstate -> fres -> Prop :=
| o_quiet w a i res :
    (ridx st <= i)%N -> reported st ev w -> no_election st res ->
    foutcome clear elig st ev (mkF (replicas st) (isr st) (leader st) (lepoch st) (pepoch st) w a i) res
| o_elect r i pick c :
    ev = FReport r (leader st) (lepoch st) i pick -> (ridx st < i)%N -> (pepoch st < i)%N ->
    quorum st < counted elig st (add_n r (wit st)) -> choose st pick = Some c ->
    foutcome clear elig st ev
      (mkF (replicas st) (isr st) c i i (if clear then [] else add_n r (wit st)) false i) (RElected c)
| o_shrink r i :
    ev = FShrink r (leader st) (lepoch st) i -> (ridx st < i)%N -> (pepoch st < i)%N -> In r (replicas st) ->
    foutcome clear elig st ev
      (mkF (replicas st) (remove_n r (isr st)) (leader st) (lepoch st) i (wit st) (armed st) i) RApplied
| o_expand r i :
    ev = FExpand r (leader st) (lepoch st) i -> (ridx st < i)%N -> (pepoch st < i)%N -> In r (replicas st) ->
    foutcome clear elig st ev
      (mkF (replicas st) (add_n r (isr st)) (leader st) (lepoch st) i (wit st) (armed st) i) RApplied.

Lemma fstep_outcome clear elig st ev :
  foutcome clear elig st ev (fst (fstep clear elig st ev)) (snd (fstep clear elig st ev)).
Proof.
  pose proof (N.le_refl (ridx st)) as Hle.
  assert (Old : reported st ev (wit st)) by (intros x Hx; left; exact Hx).
  assert (Stay : forall res, no_election st res -> foutcome clear elig st ev st res).
  { destruct st. intros res Hres. apply o_quiet; assumption. }
  assert (Idx : forall i res, (ridx st < i)%N -> no_election st res ->
            foutcome clear elig st ev (mkF (replicas st) (isr st) (leader st) (lepoch st) (pepoch st) (wit st) (armed st) i) res).
  { intros i res Hi Hres. apply o_quiet; [apply N.lt_le_incl, Hi|exact Old|exact Hres]. }
  destruct ev as [r l e i pick| |r l e i|r l e i|]; cbn [fstep]; try (apply o_quiet; easy).
  all: destruct (negb _) eqn:Hc; [apply Stay; exact I|]; apply current_spec in Hc as [-> ->].
  (* FShrink, FExpand: the same three guards *)
  2,3: destruct (i <=? ridx st)%N eqn:Hr; [apply Stay; exact I|]; apply N.leb_gt in Hr.
  2,3: destruct (i <=? pepoch st)%N eqn:Hp; [apply Idx; easy|]; apply N.leb_gt in Hp.
  2,3: destruct (negb _) eqn:Hm; [apply Idx; easy|]; apply negb_false_iff, mem_in in Hm.
  - (* FReport *) assert (New : reported st (FReport r (leader st) (lepoch st) i pick) (add_n r (wit st))).
    { intros x Hx. apply in_add_n in Hx. destruct Hx as [Hx| ->]; [left; exact Hx|right; eauto]. }
    assert (New' : reported st (FReport r (leader st) (lepoch st) i pick) (if clear then [] else add_n r (wit st))).
    { destruct clear; [intros x []|exact New]. }
    destruct (Nat.ltb _ _) eqn:Hq; [|apply o_quiet; easy]. apply Nat.ltb_lt in Hq.
    destruct (Nat.leb _ _); [apply o_quiet; easy|].
    destruct (choose st pick) as [c|] eqn:Hch; [|apply o_quiet; easy].
    destruct (i <=? ridx st)%N eqn:Hr; [apply o_quiet; easy|]. apply N.leb_gt in Hr.
    destruct (i <=? pepoch st)%N eqn:Hp; [apply o_quiet; [apply N.lt_le_incl, Hr|exact New'|reflexivity]|].
    apply N.leb_gt in Hp. apply (o_elect _ _ _ _ r i pick c); easy.
  - (* FShrink *) apply (o_shrink _ _ _ _ r i); easy.
  - (* FExpand *) apply (o_expand _ _ _ _ r i); easy.
Qed.

Theorem stale_refused clear elig st ev :
  match ev with
  | FReport _ l e _ _ | FShrink _ l e _ | FExpand _ l e _ => l <> leader st \/ e <> lepoch st
  | _ => False
  end -> fstep clear elig st ev = (st, RStale).
Proof.
  destruct ev as [r l e i pick| |r l e i|r l e i|]; intros H; try contradiction; cbn [fstep].
  all: destruct (negb _) eqn:Hc; [reflexivity|]; apply current_spec in Hc; destruct H, Hc; contradiction.
Qed.

Theorem epochs_monotone clear elig st ev : epochs_ok st ->
  let st' := fst (fstep clear elig st ev) in
  epochs_ok st' /\ (pepoch st <= pepoch st')%N /\ (lepoch st <= lepoch st')%N /\
  (leader st' <> leader st -> (lepoch st < lepoch st')%N) /\
  (lepoch st' = lepoch st -> leader st' = leader st) /\
  ((isr st' <> isr st \/ leader st' <> leader st) -> (pepoch st < pepoch st')%N).
Proof.
  intros [H1 H2]. cbv zeta. unfold epochs_ok.
  destruct (fstep_outcome clear elig st ev) as [w a i res Hi _ _|r i pick c _ Hi Hp _ _|r i _ Hi Hp _|r i _ Hi Hp _];
    cbn [isr leader lepoch pepoch ridx]; repeat split; try lia.
  intros [H|H]; contradiction H; reflexivity.
Qed.

Theorem elected_from_isr_not_leader clear elig st r l e i pick c :
  snd (fstep clear elig st (FReport r l e i pick)) = RElected c -> leader (fst (fstep clear elig st (FReport r l e i pick))) = c /\
  (c = leader st \/ (In c (isr st) /\ c <> leader st)).
Proof.
  destruct (fstep_outcome clear elig st (FReport r l e i pick)) as [w a i' res _ _ Hres|r' i' pick' c' E _ _ _ Hch|r' i' E _ _ _|r' i' E _ _ _];
    try discriminate E; intros [= ->]; cbn [leader].
  - split; [symmetry|left]; exact Hres.
  - split; [reflexivity|]. right. exact (choose_in st pick' c Hch).
Qed.

Lemma leader_change clear elig st ev :
  let st' := fst (fstep clear elig st ev) in
  leader st' <> leader st ->
  exists r i pick, ev = FReport r (leader st) (lepoch st) i pick /\
    In (leader st') (isr st) /\ quorum st < counted elig st (add_n r (wit st)) /\
    wit st' = if clear then [] else add_n r (wit st).
Proof.
  cbv zeta.
  destruct (fstep_outcome clear elig st ev) as [w a i res _ _ _|r i pick c E _ _ Hq Hch|r i _ _ _ _|r i _ _ _ _];
    cbn [leader wit]; intros H; try (contradiction H; reflexivity).
  exists r, i, pick. split; [exact E|]. split; [exact (proj1 (choose_in st pick c Hch))|]. split; [exact Hq|reflexivity].
Qed.

Theorem leader_change_is_safe st ev :
  let st' := fst (fstep true true st ev) in
  leader st' <> leader st ->
  exists r l e i pick, ev = FReport r l e i pick /\ l = leader st /\ e = lepoch st /\
    In (leader st') (isr st) /\
    quorum st < counted true st (add_n r (wit st)) /\ wit st' = [].
Proof.
  intros st' H. destruct (leader_change true true st ev H) as (r & i & pick & E & Hin & Hq & Hw).
  exists r, (leader st), (lepoch st), i, pick. auto 6.
Qed.

Lemma counted_eligible st ws : counted true st ws = length (filter (eligible st) ws).
Proof. reflexivity. Qed.

Lemma eligible_spec st w : eligible st w = true <-> In w (isr st) /\ w <> leader st.
Proof.
  unfold eligible. rewrite andb_true_iff, mem_in, negb_true_iff. split; intros [H1 H2]; split; try assumption.
  - intros ->. rewrite N.eqb_refl in H2. discriminate.
  - destruct (N.eqb_spec w (leader st)); [contradiction|reflexivity].
Qed.

(* the witness set only ever holds replicas that reported the pair (leader, epoch) that is
   still current: it grows only by a report naming the current pair, and it is emptied
   whenever the pair changes *)
Theorem witnesses_track_current_leader elig st ev :
  let st' := fst (fstep true elig st ev) in
  (leader st' = leader st /\ lepoch st' = lepoch st /\
   forall w, In w (wit st') -> In w (wit st) \/
             exists l e i pick, ev = FReport w l e i pick /\ l = leader st /\ e = lepoch st) \/
  wit st' = [].
Proof.
  cbv zeta. destruct (fstep_outcome true elig st ev) as [w a i res _ Hw _|r i pick c _ _ _ _ _|r i _ _ _ _|r i _ _ _ _];
    cbn [leader lepoch wit].
  - left. split; [reflexivity|]. split; [reflexivity|]. intros x Hx.
    destruct (Hw x Hx) as [H|(i' & pick' & E)]; [left; exact H|right]. exists (leader st), (lepoch st), i', pick'. auto.
  - right. reflexivity.
  - left. auto.
  - left. auto.
Qed.

Theorem membership_preserved clear elig st ev : membership_ok st -> internal_form st ev ->
  membership_ok (fst (fstep clear elig st ev)).
Proof.
  intros [H1 H2] Hf. unfold membership_ok.
  destruct (fstep_outcome clear elig st ev) as [w a i res _ _ _|r i pick c _ _ _ _ Hch|r i E _ _ Hr|r i _ _ _ Hr];
    cbn [leader isr replicas].
  - split; assumption.
  - split; [exact (proj1 (choose_in st pick c Hch))|exact H2].
  - rewrite E in Hf. cbn in Hf. split.
    + apply in_remove_n. auto.
    + intros x Hx. apply in_remove_n in Hx. apply H2, Hx.
  - split.
    + apply in_add_n. auto.
    + intros x Hx. apply in_add_n in Hx. destruct Hx as [Hx| ->]; [apply H2, Hx|exact Hr].
Qed.

(* where the refuting history of C07 and its twin on the repaired code start: replicas and ISR a, b, c; a leads in epoch 5 *)
Definition f_init : fstate := mkF [1;2;3]%N [1;2;3]%N 1%N 5%N 5%N [] false 5%N.

(* b and c report a (epoch 5): b is elected at index 6. With both switches on, one more report against
   (b, 6) does not elect again, whoever sends it (the pinned code does: C07_refuted_stale_and_foreign_witnesses) *)
Example fixed_code_holds :
  let st := frun true true f_init [FReport 2 1 5 6 2; FReport 3 1 5 6 2]%N in
  leader st = 2%N /\ snd (fstep true true st (FReport 9 2 6 7 3)%N) = RNoted /\
  snd (fstep true true st (FReport 3 2 6 7 3)%N) = RNoted.
Proof. vm_compute. repeat split. Qed.
