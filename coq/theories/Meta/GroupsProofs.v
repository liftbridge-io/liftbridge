(* Invariants of the consumer-group model: every partition of every stream that has a
   subscribed member is owned exactly once, by a member that subscribes to the stream.
   Also what the metadata proofs (Meta/FsmProofs.v) need of the three operations: the normal form
   of a member's stream list, what they do to the member list and the epoch, and which partition
   counts they look at. *)
From LB Require Import Base.Prelude Meta.Groups.
Open Scope Z_scope.

Lemma zseq_filter_none {A} (f : A -> Z) l q k p : map f l = zseq q k -> p < q -> filter (fun t => f t =? p) l = [].
Proof.
  revert q k. induction l as [|x r IH]; intros q k E Hp; [reflexivity|]. destruct k as [|k]; [discriminate|].
  injection E as Ex Er. cbn [filter]. destruct (Z.eqb_spec (f x) p); [lia|]. apply (IH (q + 1) k Er). lia.
Qed.

Lemma zseq_filter_one {A} (f : A -> Z) l q k p : map f l = zseq q k -> q <= p < q + Z.of_nat k ->
  exists t, filter (fun t => f t =? p) l = [t].
Proof.
  revert q k. induction l as [|x r IH]; intros q k E Hp; destruct k as [|k]; try discriminate; [lia|].
  injection E as Ex Er. cbn [filter]. destruct (Z.eqb_spec (f x) p) as [Ep|Ep].
  - exists x. rewrite (zseq_filter_none f r (q + 1) k p Er) by lia. reflexivity.
  - apply (IH (q + 1) k Er). lia.
Qed.

Definition is_s (s : sid) (t : triple) : bool := N.eqb (t_stream t) s.
Definition not_s (s : sid) (t : triple) : bool := negb (N.eqb (t_stream t) s).

Definition has_sub (s : sid) (ms : list member) : Prop := existsb (subscribes s) ms = true.

Definition owned (ms : list member) (ow : list triple) : Prop :=
  forall t, In t ow -> exists m, In m ms /\ m_id m = t_cons t /\ subscribes (t_stream t) m = true.

Lemma mem_n_in x l : mem_n x l = true <-> In x l.
Proof. apply existsb_eqb_in. Qed.

Lemma has_sub_app s a b : has_sub s (a ++ b) <-> has_sub s a \/ has_sub s b.
Proof. unfold has_sub. rewrite existsb_app. rewrite orb_true_iff. tauto. Qed.

Lemma has_sub_filter s p ms : has_sub s (filter p ms) -> has_sub s ms.
Proof.
  unfold has_sub. rewrite !existsb_exists. intros (m & Hin & Hs). apply filter_In in Hin. exists m. tauto.
Qed.

Definition strip (s : sid) (m : member) : member :=
  mkMember (m_id m) (filter (fun x => negb (N.eqb x s)) (m_streams m)).

Lemma subscribes_strip s x m : subscribes x (strip s m) = subscribes x m && negb (N.eqb x s).
Proof.
  unfold subscribes, strip. cbn [m_streams]. apply eq_true_iff_eq.
  rewrite andb_true_iff, !mem_n_in, filter_In. reflexivity.
Qed.

Lemma has_sub_strip s x ms : has_sub x (map (strip s) ms) -> x <> s /\ has_sub x ms.
Proof.
  unfold has_sub. rewrite !existsb_exists. intros (m' & Hin & Hs). apply in_map_iff in Hin.
  destruct Hin as (m & <- & Hm). rewrite subscribes_strip in Hs. apply andb_true_iff in Hs. destruct Hs as [H1 H2].
  split; [intros ->; rewrite N.eqb_refl in H2; discriminate|]. exists m. tauto.
Qed.

Lemma in_insert_sorted x y l : In x (insert_sorted y l) <-> x = y \/ In x l.
Proof.
  assert (Hc : forall t, In x (y :: t) <-> x = y \/ In x t).
  { intros t. split; (intros [H|H]; [left; symmetry; exact H|right; exact H]). }
  induction l as [|z r IH]; [apply Hc|]. cbn [insert_sorted]. destruct (y <=? z)%N; [apply Hc|]. cbn [In]. split.
  - intros [H|H]; [right; left; exact H|]. apply IH in H. destruct H as [H|H]; [left; exact H|right; right; exact H].
  - intros [H|[H|H]]; [right; apply IH; left; exact H|left; exact H|right; apply IH; right; exact H].
Qed.

Lemma in_sort_n x l : In x (sort_n l) <-> In x l.
Proof.
  induction l as [|y r IH]; [reflexivity|]. unfold sort_n in *. cbn [fold_right In]. split.
  - intros H. apply in_insert_sorted in H. destruct H as [H|H]; [left; symmetry; exact H|right; apply IH; exact H].
  - intros [H|H]; apply in_insert_sorted; [left; symmetry; exact H|right; apply IH; exact H].
Qed.

Lemma in_dedup x l : In x (dedup l) <-> In x l.
Proof.
  induction l as [|y r IH]; [reflexivity|]. cbn [dedup]. destruct (mem_n y r) eqn:E.
  - rewrite IH. cbn. split; [intros H; right; exact H|]. intros [<-|H]; [apply mem_n_in; exact E|exact H].
  - cbn [In]. rewrite IH. reflexivity.
Qed.

Lemma in_normal x l : In x (sort_n (dedup l)) -> In x l.
Proof. intros H. apply (proj1 (in_dedup x l)), (proj1 (in_sort_n x _)), H. Qed.

Fixpoint ssorted (l : list N) : Prop :=
  match l with
  | [] => True
  | x :: r => (forall y, In y r -> (x < y)%N) /\ ssorted r
  end.

Lemma insert_sorted_ssorted x l : ssorted l -> ~ In x l -> ssorted (insert_sorted x l).
Proof.
  induction l as [|y r IH]; intros Hs Hn; [cbn; split; [intros ? []|exact I]|]. destruct Hs as [Hy Hr]. cbn [insert_sorted].
  destruct (N.leb_spec x y) as [Hle|Hgt].
  - assert (x < y)%N by (assert (x <> y) by (intros ->; apply Hn; left; reflexivity); lia).
    cbn [ssorted]. split; [|split; assumption]. intros z [<-|Hz]; [assumption|]. specialize (Hy z Hz). lia.
  - cbn [ssorted]. split.
    + intros z Hz. apply in_insert_sorted in Hz. destruct Hz as [->|Hz]; [exact Hgt|apply Hy; exact Hz].
    + apply IH; [exact Hr|]. intros H. apply Hn. right. exact H.
Qed.

Lemma dedup_nodup l : NoDup (dedup l).
Proof.
  induction l as [|x r IH]; [constructor|]. cbn [dedup]. destruct (mem_n x r) eqn:E; [exact IH|].
  constructor; [|exact IH]. rewrite in_dedup. intros H. apply mem_n_in in H. congruence.
Qed.

Lemma sort_n_ssorted l : NoDup l -> ssorted (sort_n l).
Proof.
  induction l as [|x r IH]; intros Hn; [exact I|]. apply NoDup_cons_iff in Hn. destruct Hn as [Hx Hr].
  unfold sort_n. cbn [fold_right]. apply insert_sorted_ssorted; [apply IH; exact Hr|]. fold (sort_n r). rewrite in_sort_n. exact Hx.
Qed.

Lemma ssorted_nodup l : ssorted l -> NoDup l.
Proof.
  induction l as [|x r IH]; intros Hs; [constructor|]. destruct Hs as [Hx Hr]. constructor; [|apply IH; exact Hr].
  intros H. specialize (Hx x H). lia.
Qed.

Lemma dedup_id l : NoDup l -> dedup l = l.
Proof.
  induction l as [|x r IH]; intros Hn; [reflexivity|]. apply NoDup_cons_iff in Hn. destruct Hn as [Hx Hr]. cbn [dedup].
  destruct (mem_n x r) eqn:E; [apply mem_n_in in E; contradiction|]. rewrite IH by exact Hr. reflexivity.
Qed.

Lemma sort_n_id l : ssorted l -> sort_n l = l.
Proof.
  induction l as [|x r IH]; intros Hs; [reflexivity|]. destruct Hs as [Hx Hr]. unfold sort_n. cbn [fold_right]. fold (sort_n r).
  rewrite IH by exact Hr. destruct r as [|y t]; [reflexivity|]. cbn [insert_sorted]. specialize (Hx y (or_introl eq_refl)).
  destruct (N.leb_spec x y); [reflexivity|lia].
Qed.

Lemma normal_id l : ssorted l -> sort_n (dedup l) = l.
Proof. intros Hs. rewrite dedup_id by (apply ssorted_nodup; exact Hs). apply sort_n_id. exact Hs. Qed.

Lemma normal_ssorted l : ssorted (sort_n (dedup l)).
Proof. apply sort_n_ssorted. apply dedup_nodup. Qed.

Lemma ssorted_filter f l : ssorted l -> ssorted (filter f l).
Proof.
  induction l as [|x r IH]; intros Hs; [exact I|]. destruct Hs as [Hx Hr]. cbn [filter]. destruct (f x); [|apply IH; exact Hr].
  split; [|apply IH; exact Hr]. intros y Hy. apply filter_In in Hy. apply Hx. apply Hy.
Qed.

Section Proofs.
  Variable np : sid -> Z.

  Definition good (s : sid) (ow : list triple) : Prop :=
    map t_part (filter (is_s s) ow) = zseq 0 (Z.to_nat (np s)).

  (* the members min_sub chooses among: the running best and the subscribers still to come *)
  Definition cands (s : sid) (ms : list member) (best : option member) : list member :=
    match best with Some b => b :: filter (subscribes s) ms | None => filter (subscribes s) ms end.

  Lemma min_sub_spec s ow ms best :
    match min_sub s ow ms best with
    | None => cands s ms best = []
    | Some r => In r (cands s ms best) /\
                forall x, In x (cands s ms best) -> count_of (m_id r) ow <= count_of (m_id x) ow
    end.
  Proof.
    revert best. induction ms as [|m t IH]; intros best; cbn [min_sub].
    - destruct best as [b|]; [|reflexivity]. split; [left; reflexivity|]. intros x [<-|[]]. lia.
    - unfold cands. cbn [filter]. destruct (subscribes s m); [|apply IH].
      destruct best as [b|]; [|apply (IH (Some m))]. destruct (better ow m b) eqn:Eb; unfold better in Eb.
      + (* m replaces b, which has at least m's count *)
        specialize (IH (Some m)). destruct (min_sub s ow t (Some m)) as [r|]; [|discriminate IH].
        destruct IH as [Hin Hle]. split; [right; exact Hin|].
        intros x [<-|Hx]; [specialize (Hle m (or_introl eq_refl)); lia|apply Hle, Hx].
      + (* b stays, and m has at least b's count *)
        specialize (IH (Some b)). destruct (min_sub s ow t (Some b)) as [r|]; [|discriminate IH].
        destruct IH as [Hin Hle]. split; [destruct Hin as [<-|Hin]; [left; reflexivity|right; right; exact Hin]|].
        intros x [<-|[<-|Hx]]; [apply Hle; left; reflexivity|specialize (Hle b (or_introl eq_refl)); lia|apply Hle; right; exact Hx].
  Qed.

  Lemma assign_parts_shape s ms k p ow : has_sub s ms ->
    exists new, assign_parts s ms k p ow = ow ++ new /\ map t_part new = zseq p k /\
                Forall (fun t => t_stream t = s) new /\ owned ms new.
  Proof.
    intros Hs. revert p ow. induction k as [|k IH]; intros p ow.
    - exists []. cbn. rewrite app_nil_r. repeat split; [constructor|intros t []].
    - cbn [assign_parts]. pose proof (min_sub_spec s ow ms None) as Hm. destruct (min_sub s ow ms None) as [m|].
      + destruct Hm as [Hin _]. apply filter_In in Hin. destruct Hin as [Hin Hsub].
        destruct (IH (p + 1) (ow ++ [(s, p, m_id m)])) as (new & E1 & E2 & E3 & E4).
        exists ((s, p, m_id m) :: new). rewrite E1, <- app_assoc. split; [reflexivity|].
        split; [cbn; rewrite E2; reflexivity|]. split; [constructor; [reflexivity|exact E3]|].
        intros t [<-|Ht]; [exists m; cbn; auto|apply E4, Ht].
      + apply existsb_exists in Hs. destruct Hs as (x & Hx). apply filter_In in Hx. cbn in Hm. rewrite Hm in Hx. destruct Hx.
  Qed.

  Lemma filter_is_not s ow : filter (is_s s) (filter (not_s s) ow) = [].
  Proof. rewrite filter_and. apply filter_false, Forall_forall. intros t _. unfold is_s, not_s. apply andb_negb_l. Qed.

  Lemma filter_is_other s x ow : x <> s -> filter (is_s x) (filter (not_s s) ow) = filter (is_s x) ow.
  Proof. intros Hne. apply filter_absorb. intros t Ht. apply N.eqb_eq in Ht. apply negb_true_iff, N.eqb_neq. congruence. Qed.

  Lemma filter_is_all s new : Forall (fun t => t_stream t = s) new -> filter (is_s s) new = new.
  Proof. intros H. apply filter_true. eapply Forall_impl; [|exact H]. intros t <-. apply N.eqb_refl. Qed.

  Lemma filter_is_none s x new : x <> s -> Forall (fun t => t_stream t = s) new -> filter (is_s x) new = [].
  Proof. intros Hne H. apply filter_false. eapply Forall_impl; [|exact H]. intros t <-. apply N.eqb_neq. congruence. Qed.

  Lemma owned_app ms a b : owned ms a -> owned ms b -> owned ms (a ++ b).
  Proof. intros Ha Hb t Ht. apply in_app_or in Ht. destruct Ht as [Ht|Ht]; [apply Ha|apply Hb]; exact Ht. Qed.

  Lemma owned_filter ms f ow : owned ms ow -> owned ms (filter f ow).
  Proof. intros Ho t Ht. apply filter_In in Ht. apply Ho, Ht. Qed.

  Lemma owned_mono ms ms' ow : (forall m, In m ms -> In m ms') -> owned ms ow -> owned ms' ow.
  Proof. intros Hsub Ho t Ht. destruct (Ho t Ht) as (m & Hin & H). exists m. auto. Qed.

  Lemma balance_shape s ms ow : has_sub s ms ->
    exists new, balance np s ms ow = filter (not_s s) ow ++ new /\ map t_part new = zseq 0 (Z.to_nat (np s)) /\
                Forall (fun t => t_stream t = s) new /\ owned ms new.
  Proof. intros Hs. unfold balance. rewrite Hs. apply (assign_parts_shape s ms _ 0 (filter (not_s s) ow) Hs). Qed.

  Lemma balance_nosub s ms ow : existsb (subscribes s) ms = false -> balance np s ms ow = ow.
  Proof. intros Hs. unfold balance. rewrite Hs. reflexivity. Qed.

  Lemma balance_slice s ms ow : has_sub s ms ->
    good s (balance np s ms ow) /\ owned ms (filter (is_s s) (balance np s ms ow)).
  Proof.
    intros Hs. destruct (balance_shape s ms ow Hs) as (new & -> & Hp & Hst & Hn). unfold good.
    rewrite filter_app, filter_is_not, filter_is_all by exact Hst. split; assumption.
  Qed.

  Lemma balance_other s x ms ow : x <> s -> filter (is_s x) (balance np s ms ow) = filter (is_s x) ow.
  Proof.
    intros Hne. destruct (existsb (subscribes s) ms) eqn:Hs; [|rewrite balance_nosub by exact Hs; reflexivity].
    destruct (balance_shape s ms ow Hs) as (new & -> & _ & Hst & _).
    rewrite filter_app, filter_is_other, (filter_is_none s x new Hne Hst) by exact Hne. apply app_nil_r.
  Qed.

  Lemma balance_owned_sup s ms ms' ow : (forall m, In m ms -> In m ms') -> owned ms' ow -> owned ms' (balance np s ms ow).
  Proof.
    intros Hsub Ho. destruct (existsb (subscribes s) ms) eqn:Hs; [|rewrite balance_nosub by exact Hs; exact Ho].
    destruct (balance_shape s ms ow Hs) as (new & -> & _ & _ & Hn).
    apply owned_app; [apply owned_filter; exact Ho|eapply owned_mono; eassumption].
  Qed.

  Definition bal_if (ms : list member) (cond : sid -> bool) (ow : list triple) (s : sid) : list triple :=
    if cond s then balance np s ms ow else ow.

  Lemma fold_bal_owned_sup ms ms' cond L ow : (forall m, In m ms -> In m ms') -> owned ms' ow ->
    owned ms' (fold_left (bal_if ms cond) L ow).
  Proof.
    intros Hsub. revert L ow. apply (fold_left_inv _ (owned ms')). intros ow s Ho.
    unfold bal_if. destruct (cond s); [apply balance_owned_sup; assumption|exact Ho].
  Qed.

  (* the slice of stream x after a sequence of rebalances is the one its last rebalance left, or
     the old one if x was not rebalanced *)
  Lemma fold_bal_slice ms cond L ow x (Q : list triple -> Prop) :
    (forall ow', Q (filter (is_s x) (balance np x ms ow'))) ->
    (~ (In x L /\ cond x = true) -> Q (filter (is_s x) ow)) ->
    Q (filter (is_s x) (fold_left (bal_if ms cond) L ow)).
  Proof.
    intros Hbal. revert ow. induction L as [|s r IH]; intros ow Hold; cbn [fold_left]; [apply Hold; intros [[] _]|].
    apply IH. intros Hr. unfold bal_if. destruct (N.eq_dec x s) as [<-|Hne].
    - destruct (cond x) eqn:Ec; [apply Hbal|]. apply Hold. intros [_ Hc]. congruence.
    - assert (E : filter (is_s x) (if cond s then balance np s ms ow else ow) = filter (is_s x) ow)
        by (destruct (cond s); [apply balance_other; exact Hne|reflexivity]).
      rewrite E. apply Hold. intros [[Hx|Hx] Hc]; [congruence|apply Hr; split; assumption].
  Qed.

  Record inv (g : group) : Prop := {
    inv_nodup : NoDup (map m_id (g_members g));
    inv_owned : owned (g_members g) (g_owners g);
    inv_good : forall s, has_sub s (g_members g) -> good s (g_owners g)
  }.

  Lemma inv_new : inv new_group.
  Proof. constructor; cbn; [constructor|intros t []|intros s H; discriminate H]. Qed.

  Lemma rebalance_inv ms L ow e : NoDup (map m_id ms) -> owned ms ow ->
    (forall x, has_sub x ms -> ~ In x L -> good x ow) ->
    inv (mkGroup ms (fold_left (fun ow s => balance np s ms ow) L ow) e).
  Proof.
    intros Hnd Ho Hg. change (inv (mkGroup ms (fold_left (bal_if ms (fun _ => true)) L ow) e)).
    constructor; cbn [g_members g_owners]; [exact Hnd|apply (fold_bal_owned_sup ms ms); auto|].
    intros x Hx. apply (fold_bal_slice ms _ L _ x (fun sl => map t_part sl = _)); [intros ow'; apply balance_slice; exact Hx|].
    intros Hn. apply Hg; [exact Hx|]. intros Hin. apply Hn. split; [exact Hin|reflexivity].
  Qed.

  Theorem add_member_inv g c ss e g' :
    inv g -> ~ In c (map m_id (g_members g)) -> add_member np g c ss e = GOk g' -> inv g'.
  Proof.
    intros [Hnd Ho Hg] Hfresh H. unfold add_member in H. destruct (e <? g_epoch g)%N; [discriminate|].
    injection H as <-. apply rebalance_inv.
    - rewrite map_app. cbn. apply NoDup_app_snoc; assumption.
    - eapply owned_mono; [|exact Ho]. intros m Hm. apply in_or_app. left. exact Hm.
    - (* a stream that is not rebalanced is not one of the new member's: it had a subscriber before *)
      intros s Hs Hn. apply Hg. apply has_sub_app in Hs. destruct Hs as [Hs|Hs]; [exact Hs|].
      exfalso. apply Hn. unfold has_sub in Hs. cbn in Hs. rewrite orb_false_r in Hs. apply mem_n_in. exact Hs.
  Qed.

  Definition not_c (c : cid) (t : triple) : bool := negb (N.eqb (t_cons t) c).

  Lemma has_assignment_false c s ow : has_assignment c s ow = false ->
    forall t, In t (filter (is_s s) ow) -> not_c c t = true.
  Proof.
    intros H t Hin. apply filter_In in Hin. destruct Hin as [Hin Hs]. apply not_true_iff_false in H.
    unfold not_c. destruct (N.eqb_spec (t_cons t) c) as [E|E]; [|reflexivity].
    exfalso. apply H, existsb_exists. exists t. split; [exact Hin|]. unfold is_s in Hs. rewrite Hs, E, N.eqb_refl. reflexivity.
  Qed.

  Lemma has_assignment_true c s ow : has_assignment c s ow = true ->
    exists t, In t ow /\ t_stream t = s /\ t_cons t = c.
  Proof.
    unfold has_assignment. rewrite existsb_exists. intros (t & Hin & H). apply andb_true_iff in H.
    destruct H as [H1 H2]. apply N.eqb_eq in H1. apply N.eqb_eq in H2. eauto.
  Qed.

  Lemma owned_remove c ms ow : owned ms ow ->
    owned (filter (fun m => negb (N.eqb (m_id m) c)) ms) (filter (not_c c) ow).
  Proof.
    intros Ho t Ht. apply filter_In in Ht. destruct Ht as [Ht Hc].
    destruct (Ho t Ht) as (m & Hin & H1 & H2). exists m. split; [|tauto].
    apply filter_In. split; [exact Hin|]. rewrite H1. exact Hc.
  Qed.

  Theorem remove_member_inv g c e g' : inv g -> remove_member np g c e = GOk g' -> inv g'.
  Proof.
    intros [Hnd Ho Hg] H. unfold remove_member in H. destruct (e <? g_epoch g)%N; [discriminate|].
    destruct (find (fun m => N.eqb (m_id m) c) (g_members g)) as [lv|] eqn:Ef; [|discriminate].
    injection H as <-. apply find_some in Ef. destruct Ef as [Hlv Eid]. apply N.eqb_eq in Eid.
    set (ms := filter (fun m => negb (N.eqb (m_id m) c)) (g_members g)).
    set (cond := fun s => has_assignment c s (g_owners g)).
    change (inv (mkGroup ms (filter (not_c c) (fold_left (bal_if ms cond) (m_streams lv) (g_owners g))) e)).
    assert (Hsub : forall m, In m ms -> In m (g_members g)) by (intros m Hm; apply filter_In in Hm; tauto).
    constructor; cbn [g_members g_owners].
    - apply NoDup_map_filter. exact Hnd.
    - apply owned_remove. apply fold_bal_owned_sup; assumption.
    - intros s Hs. unfold good. rewrite filter_comm.
      apply (fold_bal_slice ms cond (m_streams lv) _ s (fun sl => map t_part (filter (not_c c) sl) = _)).
      + (* rebalanced among the others *)
        intros ow'. destruct (balance_slice s ms ow' Hs) as [Hgood Hown].
        rewrite filter_all_true; [exact Hgood|]. intros t Ht. destruct (Hown t Ht) as (m & Hm & Hid & _).
        unfold not_c. rewrite <- Hid. apply filter_In in Hm. apply Hm.
      + intros Hn. destruct (cond s) eqn:Ec.
        * (* c held partitions of s: it subscribed, so s was rebalanced *)
          exfalso. apply Hn. split; [|reflexivity]. destruct (has_assignment_true _ _ _ Ec) as (t & Ht & Est & Ect).
          destruct (Ho t Ht) as (m & Hm & Hid & Hsub').
          rewrite (NoDup_map_inj m_id _ m lv Hnd Hm Hlv) in Hsub' by congruence.
          rewrite Est in Hsub'. apply mem_n_in. exact Hsub'.
        * rewrite filter_all_true by (apply has_assignment_false; exact Ec). apply Hg. eapply has_sub_filter. exact Hs.
  Qed.

  Theorem stream_deleted_inv g s e g' : inv g -> stream_deleted np g s e = GOk g' -> inv g'.
  Proof.
    intros Hinv H. pose proof Hinv as [Hnd Ho Hg]. unfold stream_deleted in H. destruct (e <? g_epoch g)%N; [discriminate|].
    destruct (negb (existsb (subscribes s) (g_members g))); [injection H as <-; exact Hinv|].
    injection H as <-. apply rebalance_inv.
    - rewrite map_map. cbn. exact Hnd.
    - intros t Ht. apply filter_In in Ht. destruct Ht as [Ht Hns].
      destruct (Ho t Ht) as (m & Hm & Hid & Hsub). exists (strip s m). split; [apply (in_map (strip s)); exact Hm|].
      split; [exact Hid|]. rewrite subscribes_strip, Hsub. exact Hns.
    - intros x Hx _. destruct (has_sub_strip s x (g_members g) Hx) as [Hne Hx'].
      unfold good. rewrite (filter_is_other s x) by exact Hne. apply Hg. exact Hx'.
  Qed.

  Inductive gop_ok : group -> group -> Prop :=
  | ok_join g c ss e g' : ~ In c (map m_id (g_members g)) -> add_member np g c ss e = GOk g' -> gop_ok g g'
  | ok_leave g c e g' : remove_member np g c e = GOk g' -> gop_ok g g'
  | ok_sdel g s e g' : stream_deleted np g s e = GOk g' -> gop_ok g g'.

  Inductive greachable : group -> Prop :=
  | gr_new : greachable new_group
  | gr_step g g' : greachable g -> gop_ok g g' -> greachable g'.

  Theorem reachable_inv g : greachable g -> inv g.
  Proof.
    induction 1 as [|g g' _ IH Hop]; [apply inv_new|].
    destruct Hop; [eapply add_member_inv|eapply remove_member_inv|eapply stream_deleted_inv]; eassumption.
  Qed.

  Theorem exactly_one_owner g s p : inv g -> has_sub s (g_members g) -> 0 <= p < np s ->
    exists t, filter (fun t => is_s s t && (t_part t =? p)) (g_owners g) = [t] /\
              exists m, In m (g_members g) /\ m_id m = t_cons t /\ subscribes s m = true.
  Proof.
    intros [_ Ho Hg] Hs Hp. destruct (zseq_filter_one t_part _ 0 _ p (Hg s Hs) ltac:(lia)) as (t & Et).
    rewrite filter_and in Et. exists t. split; [exact Et|].
    assert (Hin : In t (filter (fun t => is_s s t && (t_part t =? p)) (g_owners g))) by (rewrite Et; left; reflexivity).
    apply filter_In in Hin. destruct Hin as [Hin Hb]. apply andb_true_iff in Hb. destruct Hb as [Hb _]. apply N.eqb_eq in Hb.
    destruct (Ho t Hin) as (m & Hm & Hid & Hsub). exists m. rewrite Hb in Hsub. auto.
  Qed.

  Theorem only_subscribed g t : inv g -> In t (g_owners g) ->
    exists m, In m (g_members g) /\ m_id m = t_cons t /\ subscribes (t_stream t) m = true.
  Proof. intros [_ Ho _]. apply Ho. Qed.

  Theorem only_existing_partitions g t : inv g -> In t (g_owners g) -> 0 <= t_part t < np (t_stream t).
  Proof.
    intros Hinv Hin. destruct (only_subscribed g t Hinv Hin) as (m & Hm & _ & Hsub).
    destruct Hinv as [_ _ Hg].
    assert (Hs : has_sub (t_stream t) (g_members g)) by (apply existsb_exists; exists m; auto).
    assert (Hp : In (t_part t) (zseq 0 (Z.to_nat (np (t_stream t))))).
    { rewrite <- (Hg _ Hs). apply in_map. apply filter_In. split; [exact Hin|apply N.eqb_refl]. }
    apply in_zseq in Hp. lia.
  Qed.

  Lemma count_of_app c a b : count_of c (a ++ b) = count_of c a + count_of c b.
  Proof. unfold count_of. rewrite filter_app, app_length. lia. Qed.

  Definition spread (s : sid) (ms : list member) (ow : list triple) : Prop :=
    forall m1 m2, In m1 ms -> In m2 ms -> subscribes s m1 = true -> subscribes s m2 = true ->
                  count_of (m_id m1) ow <= count_of (m_id m2) ow + 1.

  Lemma assign_parts_spread s ms k p ow : spread s ms ow -> spread s ms (assign_parts s ms k p ow).
  Proof.
    revert p ow. induction k as [|k IH]; intros p ow Hsp; [exact Hsp|]. cbn [assign_parts].
    pose proof (min_sub_spec s ow ms None) as Hmin. destruct (min_sub s ow ms None) as [m|]; [|exact Hsp].
    apply IH. destruct Hmin as [_ Hmin].
    intros m1 m2 H1 H2 S1 S2. rewrite !count_of_app. unfold count_of at 2 4. cbn [filter t_cons snd].
    specialize (Hsp m1 m2 H1 H2 S1 S2). pose proof (Hmin m2 (proj2 (filter_In _ _ _) (conj H2 S2))) as Hm2. clear - Hsp Hm2.
    destruct (N.eqb_spec (m_id m) (m_id m1)) as [E1|E1], (N.eqb_spec (m_id m) (m_id m2)) as [E2|E2]; cbn [length]; try lia.
    rewrite <- E1. lia.
  Qed.

  Theorem balance_single_stream s ms ow : (forall t, In t ow -> t_stream t = s) -> spread s ms (balance np s ms ow).
  Proof.
    intros Hall. destruct (existsb (subscribes s) ms) eqn:Hs.
    - unfold balance. rewrite Hs. apply assign_parts_spread. rewrite filter_false.
      + intros m1 m2 _ _ _ _. cbn. lia.
      + apply Forall_forall. intros t Ht. rewrite (Hall t Ht), N.eqb_refl. reflexivity.
    - intros m1 m2 H1 _ S1 _. exfalso. apply not_true_iff_false in Hs. apply Hs.
      apply existsb_exists. exists m1. split; assumption.
  Qed.
End Proofs.

Lemma stale_epoch_refused np g c ss s e : (e < g_epoch g)%N ->
  add_member np g c ss e = GRefused /\ remove_member np g c e = GRefused /\ stream_deleted np g s e = GRefused.
Proof.
  intros H. unfold add_member, remove_member, stream_deleted.
  destruct (N.ltb_spec e (g_epoch g)); [auto|lia].
Qed.

Lemma accepted_sets_epoch np g c ss e g' : add_member np g c ss e = GOk g' -> g_epoch g' = e /\ (g_epoch g <= e)%N.
Proof.
  unfold add_member. destruct (N.ltb_spec e (g_epoch g)); [discriminate|]. intros [= <-]. cbn. split; [reflexivity|assumption].
Qed.

Lemma balance_ext np1 np2 s ms ow : np1 s = np2 s -> balance np1 s ms ow = balance np2 s ms ow.
Proof. intros H. unfold balance. rewrite H. reflexivity. Qed.

Lemma fold_bal_ext np1 np2 ms cond L : (forall s, In s L -> np1 s = np2 s) ->
  forall ow, fold_left (bal_if np1 ms cond) L ow = fold_left (bal_if np2 ms cond) L ow.
Proof.
  induction L as [|s r IH]; intros H ow; [reflexivity|]. cbn [fold_left].
  assert (E : bal_if np1 ms cond ow s = bal_if np2 ms cond ow s).
  { unfold bal_if. rewrite (balance_ext np1 np2 s) by (apply H; left; reflexivity). reflexivity. }
  rewrite E. apply IH. intros x Hx. apply H. right. exact Hx.
Qed.

Lemma add_member_ext np1 np2 g c ss e : (forall s, In s ss -> np1 s = np2 s) ->
  add_member np1 g c ss e = add_member np2 g c ss e.
Proof.
  intros H. unfold add_member. destruct (e <? g_epoch g)%N; [reflexivity|]. f_equal. f_equal.
  apply (fold_bal_ext np1 np2 _ (fun _ => true)). intros s Hs. apply H, in_normal, Hs.
Qed.

Lemma add_member_shape np g c ss e g' : add_member np g c ss e = GOk g' ->
  g_members g' = g_members g ++ [mkMember c (sort_n (dedup ss))] /\ g_epoch g' = e.
Proof. unfold add_member. destruct (e <? g_epoch g)%N; [discriminate|]. intros [= <-]. split; reflexivity. Qed.

Lemma remove_member_shape np g c e g' : remove_member np g c e = GOk g' ->
  g_members g' = filter (fun m => negb (N.eqb (m_id m) c)) (g_members g) /\ g_epoch g' = e.
Proof.
  unfold remove_member. destruct (e <? g_epoch g)%N; [discriminate|].
  destruct (find _ (g_members g)); [|discriminate]. intros [= <-]. split; reflexivity.
Qed.

Lemma stream_deleted_not_refused np g s e : (g_epoch g <= e)%N -> exists g', stream_deleted np g s e = GOk g'.
Proof.
  intros H. unfold stream_deleted. destruct (N.ltb_spec e (g_epoch g)); [lia|].
  destruct (negb (existsb (subscribes s) (g_members g))); eexists; reflexivity.
Qed.

Definition members_sorted (g : group) : Prop := forall m, In m (g_members g) -> ssorted (m_streams m).

Lemma add_member_sorted np g c ss e g' : members_sorted g -> add_member np g c ss e = GOk g' -> members_sorted g'.
Proof.
  intros Hs H m Hm. destruct (add_member_shape _ _ _ _ _ _ H) as [E _]. rewrite E in Hm. apply in_app_or in Hm.
  destruct Hm as [Hm|[<-|[]]]; [apply Hs; exact Hm|apply normal_ssorted].
Qed.

Lemma remove_member_sorted np g c e g' : members_sorted g -> remove_member np g c e = GOk g' -> members_sorted g'.
Proof. intros Hs H m Hm. destruct (remove_member_shape _ _ _ _ _ H) as [E _]. rewrite E in Hm. apply filter_In in Hm. apply Hs, Hm. Qed.

Lemma stream_deleted_sorted np g s e g' : members_sorted g -> stream_deleted np g s e = GOk g' -> members_sorted g'.
Proof.
  intros Hs. unfold stream_deleted. destruct (e <? g_epoch g)%N; [discriminate|].
  destruct (negb (existsb (subscribes s) (g_members g))); intros [= <-]; [exact Hs|].
  intros m' Hm'. cbn [g_members] in Hm'. apply in_map_iff in Hm'. destruct Hm' as (m & <- & Hm). cbn [m_streams].
  apply ssorted_filter. apply Hs. exact Hm.
Qed.

Lemma restore_members np ms : forall acc, g_epoch acc = 0%N -> (forall m, In m ms -> ssorted (m_streams m)) ->
  let g := fold_left (fun g mb => match add_member np g (m_id mb) (m_streams mb) 0%N with GOk g' => g' | _ => g end) ms acc in
  g_members g = g_members acc ++ ms.
Proof.
  induction ms as [|m r IH]; intros acc He Hs; cbn [fold_left]; [rewrite app_nil_r; reflexivity|].
  assert (Hok : exists g1, add_member np acc (m_id m) (m_streams m) 0%N = GOk g1).
  { unfold add_member. rewrite He. cbn [N.ltb N.compare]. eexists. reflexivity. }
  destruct Hok as (g1 & E1). rewrite E1. destruct (add_member_shape _ _ _ _ _ _ E1) as [Hm1 He1].
  rewrite (IH g1 He1 (fun m0 H0 => Hs m0 (or_intror H0))), Hm1, <- app_assoc. cbn [app]. f_equal. f_equal.
  rewrite normal_id by (apply Hs; left; reflexivity). destruct m. reflexivity.
Qed.
