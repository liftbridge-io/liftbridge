(* C12, "in a group consuming a single stream the members' partition counts differ by at most
   one" -- lifted from one rebalance (GroupsProofs.balance_single_stream) to every state
   reachable by joins and leaves of members that all subscribe to exactly that stream. *)
From LB Require Import Base.Prelude Meta.Groups Meta.GroupsProofs.
Open Scope Z_scope.

Section Single.
  Variable np : sid -> Z.
  Variable s : sid.

  Lemma balance_streams ms ow : (forall t, In t ow -> t_stream t = s) ->
    forall t, In t (balance np s ms ow) -> t_stream t = s.
  Proof.
    intros H t. destruct (existsb (subscribes s) ms) eqn:Hs; [|rewrite balance_nosub by exact Hs; apply H].
    destruct (balance_shape np s ms ow Hs) as (new & -> & _ & Hst & _). intros Ht. apply in_app_or in Ht.
    destruct Ht as [Ht|Ht]; [apply filter_In in Ht; apply H, Ht|exact (proj1 (Forall_forall _ _) Hst t Ht)].
  Qed.

  Lemma count_filter_other c c' ow : c <> c' ->
    count_of c (filter (fun t => negb (N.eqb (t_cons t) c')) ow) = count_of c ow.
  Proof.
    intros Hne. unfold count_of. rewrite filter_absorb; [reflexivity|].
    intros t Ht. apply N.eqb_eq in Ht. apply negb_true_iff, N.eqb_neq. congruence.
  Qed.

  Lemma spread_sub ms ms' ow : (forall m, In m ms -> In m ms') -> spread s ms' ow -> spread s ms ow.
  Proof. intros Hsub H m1 m2 H1 H2. apply H; apply Hsub; assumption. Qed.

  Definition balanced (g : group) : Prop :=
    (forall m, In m (g_members g) -> m_streams m = [s]) /\
    (forall t, In t (g_owners g) -> t_stream t = s) /\
    spread s (g_members g) (g_owners g).

  Theorem join_single g c e g' : balanced g -> add_member np g c [s] e = GOk g' -> balanced g'.
  Proof.
    intros (Hm & Ho & _). unfold add_member. destruct (e <? g_epoch g)%N; [discriminate|].
    change (sort_n (dedup [s])) with [s]. cbn [fold_left]. intros [= <-]. split; [|split]; cbn [g_members g_owners].
    - intros m Hin. apply in_app_or in Hin. destruct Hin as [Hin|[<-|[]]]; [apply Hm; exact Hin|reflexivity].
    - apply balance_streams. exact Ho.
    - apply balance_single_stream. exact Ho.
  Qed.

  Theorem leave_single g c e g' : balanced g -> remove_member np g c e = GOk g' -> balanced g'.
  Proof.
    intros (Hm & Ho & Hsp). unfold remove_member. destruct (e <? g_epoch g)%N; [discriminate|].
    destruct (find (fun m => N.eqb (m_id m) c) (g_members g)) as [lv|] eqn:Ef; [|discriminate].
    destruct (find_some _ _ Ef) as [Hlv _]. rewrite (Hm lv Hlv). cbn [fold_left].
    intros [= <-].
    set (ms := filter (fun m => negb (N.eqb (m_id m) c)) (g_members g)).
    set (ow1 := if has_assignment c s (g_owners g) then balance np s ms (g_owners g) else g_owners g).
    assert (Hsub : forall m, In m ms -> In m (g_members g)) by (intros m Hin; apply filter_In in Hin; apply Hin).
    assert (H1 : (forall t, In t ow1 -> t_stream t = s) /\ spread s ms ow1).
    { unfold ow1. destruct (has_assignment c s (g_owners g)).
      - split; [apply balance_streams|apply balance_single_stream]; exact Ho.
      - split; [exact Ho|]. eapply spread_sub; [exact Hsub|exact Hsp]. }
    destruct H1 as [Ho1 Hs1].
    split; [|split]; cbn [g_members g_owners].
    - intros m Hin. apply Hm. apply Hsub. exact Hin.
    - intros t Hin. apply filter_In in Hin. apply Ho1. apply Hin.
    - intros m1 m2 H1 H2 S1 S2.
      assert (Hne : forall m, In m ms -> m_id m <> c).
      { intros m Hin. apply filter_In in Hin. destruct Hin as [_ Hin]. destruct (N.eqb_spec (m_id m) c); [discriminate|assumption]. }
      rewrite !count_filter_other by (apply Hne; assumption). apply Hs1; assumption.
  Qed.

  Inductive sreach : group -> Prop :=
  | sr_new : sreach new_group
  | sr_join g c e g' : sreach g -> ~ In c (map m_id (g_members g)) -> add_member np g c [s] e = GOk g' -> sreach g'
  | sr_leave g c e g' : sreach g -> remove_member np g c e = GOk g' -> sreach g'.

  Lemma sreach_greachable g : sreach g -> greachable np g.
  Proof.
    induction 1 as [|g c e g' _ IH Hn Ha|g c e g' _ IH Hr]; [constructor| |].
    - eapply gr_step; [exact IH|]. eapply ok_join; eassumption.
    - eapply gr_step; [exact IH|]. eapply ok_leave; eassumption.
  Qed.

  Theorem sreach_balanced g : sreach g -> balanced g.
  Proof.
    induction 1 as [|g c e g' _ IH Hn Ha|g c e g' _ IH Hr].
    - split; [|split]; cbn [new_group g_members g_owners]; [intros m []|intros t []|intros m1 m2 []].
    - eapply join_single; eassumption.
    - eapply leave_single; eassumption.
  Qed.
End Single.

(* non-vacuity: 5 partitions, three joins and a leave: counts 2/2/1, then 3/2 *)
Example sreach_example :
  let np := fun _ : sid => 5 in
  let run := fun g (f : group -> gres) => match f g with GOk g' => g' | _ => g end in
  let g3 := fold_left (fun g c => run g (fun g => add_member np g c [7%N] 1%N)) [1; 2; 3]%N new_group in
  let g4 := run g3 (fun g => remove_member np g 2%N 2%N) in
  map (fun c => count_of c (g_owners g3)) [1; 2; 3]%N = [2; 2; 1] /\
  map (fun c => count_of c (g_owners g4)) [1; 3]%N = [3; 2] /\ length (g_owners g4) = 5%nat.
Proof. vm_compute. repeat split. Qed.
