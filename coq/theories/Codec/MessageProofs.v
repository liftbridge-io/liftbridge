(* C01, the message codec: each get_ undoes its put_ in front of any rest, the lengths being within the signed
   ranges of their prefixes, so key, value and headers are read back from an encoded message. *)
From LB Require Import Base.Prelude Codec.Message.
Open Scope Z_scope.

Lemma i32_minus1 rest : i32 (be_encode 4 u32_minus1 ++ rest) = -1.
Proof. unfold i32. rewrite firstn_be, be_decode_encode by (vm_compute; reflexivity). reflexivity. Qed.

Lemma i32_len n rest : Z.of_nat n < 2147483648 -> i32 (be_encode 4 (N.of_nat n) ++ rest) = Z.of_nat n.
Proof.
  intros H. unfold i32. rewrite firstn_be, be_decode_encode.
  - rewrite nat_N_Z. destruct (Z.leb_spec 2147483648 (Z.of_nat n)); lia.
  - change (256 ^ N.of_nat 4)%N with 4294967296%N. lia.
Qed.

Lemma u16_len n rest : Z.of_nat n < 32768 -> u16 (be_encode 2 (N.of_nat n) ++ rest) = n.
Proof.
  intros H. unfold u16. rewrite firstn_be, be_decode_encode; [lia|].
  change (256 ^ N.of_nat 2)%N with 65536%N. lia.
Qed.

(* nil stays nil, empty stays empty *)
Lemma get_put_bytes b rest : bytes_wf b -> get_bytes (put_bytes b ++ rest) = (b, rest).
Proof.
  intros Hwf. unfold get_bytes, put_bytes. destruct b as [x|].
  - rewrite <- app_assoc. rewrite i32_len by exact Hwf.
    destruct (Z.eqb_spec (Z.of_nat (length x)) (-1)); [lia|].
    rewrite skipn_be, Nat2Z.id, firstn_app_exact, skipn_app_exact. reflexivity.
  - rewrite i32_minus1. cbn [Z.eqb]. rewrite skipn_be. reflexivity.
Qed.

Lemma get_put_headers hs rest :
  Forall (fun h => Z.of_nat (length (fst h)) < 32768 /\ bytes_wf (snd h)) hs ->
  get_headers (length hs) (concat (map put_header hs) ++ rest) = hs.
Proof.
  induction 1 as [|[name v] t [Hn Hv] _ IH]; [reflexivity|].
  cbn [length map concat]. cbn [fst snd] in *.
  change (put_header (name, v)) with (put_string name ++ put_bytes v). unfold put_string. rewrite <- !app_assoc.
  cbn [get_headers]. rewrite u16_len by exact Hn. rewrite skipn_be, firstn_app_exact, skipn_app_exact.
  rewrite get_put_bytes by exact Hv. rewrite IH. reflexivity.
Qed.

Lemma skipn6_encode m : skipn 6 (encode m) =
  put_bytes (g_key m) ++ put_bytes (g_value m) ++ be_encode 2 (N.of_nat (length (g_headers m))) ++
  concat (map put_header (g_headers m)).
Proof. reflexivity. Qed.   (* [be_encode 4 _] computes to four cells whatever the value *)

Theorem message_roundtrip m : message_wf m ->
  key_of (encode m) = g_key m /\ value_of (encode m) = g_value m /\ headers_of (encode m) = g_headers m.
Proof.
  intros (Hk & Hv & Hn & Hh). unfold key_of, value_of, headers_of. rewrite skipn6_encode.
  rewrite get_put_bytes by exact Hk. cbn [fst snd]. rewrite get_put_bytes by exact Hv. cbn [fst snd].
  split; [reflexivity|]. split; [reflexivity|].
  rewrite u16_len by exact Hn. rewrite skipn_be.
  rewrite <- (app_nil_r (concat (map put_header (g_headers m)))). apply get_put_headers. exact Hh.
Qed.
