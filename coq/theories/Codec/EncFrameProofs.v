(* C17: Read with the length checks never panics. What it accepts has the form of a sealed value
   (read_cases), which with the integrity of the primitives gives the rejection of tampered values;
   read_framed computes Read on a well-framed input, which gives the round trip and the rejection of a value
   sealed under another master key. *)
From LB Require Import Base.Prelude Codec.EncFrame.

Section Proofs.
  Variable wrap : bytes -> bytes.
  Variable unwrap : bytes -> option bytes.
  Variable key_ok : bytes -> bool.
  Variable aead_seal : bytes -> bytes -> bytes -> bytes.
  Variable aead_open : bytes -> bytes -> bytes -> option bytes.

  Notation rd := (read unwrap key_ok aead_open).
  Notation sl := (seal wrap aead_seal).

  Theorem read_unguarded_panics : rd false [] = Panic /\ forall t, length t < 255 -> rd false (255%N :: t) = Panic.
  Proof.
    split; [reflexivity|]. intros t Ht. unfold read, fail.
    destruct (Nat.ltb_spec (length (255%N :: t)) (S (N.to_nat 255))) as [_|H]; [reflexivity|]. cbn [length] in H. clear - H Ht. lia.
  Qed.

  Lemma read_cases g d r : rd g d = r ->
    match r with
    | Ok p => exists w nonce ct dek, d = N.of_nat (length w) :: w ++ nonce ++ ct /\ length nonce = nonce_len /\
                unwrap w = Some dek /\ key_ok dek = true /\ aead_open dek nonce ct = Some p
    | Err => True
    | Panic => g = false
    end.
  Proof.
    intros <-. unfold read, fail. destruct d as [|ks t]; [destruct g; [exact I|reflexivity]|].
    destruct (Nat.ltb_spec (length (ks :: t)) (S (N.to_nat ks))) as [H1|H1]; [destruct g; [exact I|reflexivity]|].
    cbn [skipn]. set (rest := skipn (N.to_nat ks) t).
    destruct (unwrap (firstn (N.to_nat ks) t)) as [dek|] eqn:Eu; [|exact I].
    destruct (key_ok dek) eqn:Ek; cbn [negb]; [|exact I].
    destruct (Nat.ltb_spec (length rest) nonce_len) as [H2|H2]; [destruct g; [exact I|reflexivity]|].
    destruct (aead_open dek _ _) as [q|] eqn:Eo; [|exact I].
    exists (firstn (N.to_nat ks) t), (firstn nonce_len rest), (skipn nonce_len rest), dek.
    cbn [length] in H1. rewrite !firstn_length_le by (clear - H1 H2; lia). rewrite N2Nat.id, !firstn_skipn. auto.
  Qed.

  Theorem read_total d : rd true d <> Panic.
  Proof. intros H. discriminate (read_cases _ _ _ H). Qed.

  Lemma read_framed g w ct : rd g (N.of_nat (length w) :: w ++ ct) =
    match unwrap w with
    | None => Err
    | Some dek =>
      if negb (key_ok dek) then Err
      else if Nat.ltb (length ct) nonce_len then fail g
      else match aead_open dek (firstn nonce_len ct) (skipn nonce_len ct) with Some p => Ok p | None => Err end
    end.
  Proof.
    unfold read. rewrite Nat2N.id.
    destruct (Nat.ltb_spec (length (N.of_nat (length w) :: w ++ ct)) (S (length w))) as [H|_].
    - cbn [length] in H. rewrite app_length in H. clear - H. lia.
    - cbn [skipn]. rewrite firstn_app_exact, skipn_app_exact. reflexivity.
  Qed.
  (* The hypotheses [length (wrap _) < 256] of the three theorems below are used by no proof:
     [seal] stores the length of the wrapped key as it is, the code stores byte(keyLength), and
     the two agree only under them. *)
  Theorem seal_read_roundtrip g dek nonce data :
    unwrap (wrap dek) = Some dek -> key_ok dek = true -> length nonce = nonce_len ->
    length (wrap dek) < 256 ->
    aead_open dek nonce (aead_seal dek nonce data) = Some data ->
    rd g (sl dek nonce data) = Ok data.
  Proof.
    intros Hu Hk Hn _ Ho. unfold seal. cbn [app]. rewrite read_framed, Hu, Hk. cbn [negb].
    destruct (Nat.ltb_spec (length (nonce ++ aead_seal dek nonce data)) nonce_len) as [H|_].
    - rewrite app_length in H. clear - H Hn. lia.
    - rewrite <- Hn, firstn_app_exact, skipn_app_exact, Ho. reflexivity.
  Qed.

  (* With ciphertext integrity of the AEAD and of the key wrap -- an opened ciphertext is the
     sealing of the returned plaintext, an unwrapped key comes from its wrapping -- every
     accepted byte string IS a sealed value; so a stored value that was changed in any way into
     something that is not a sealed value yields an error instead of data. *)
  Theorem tampered_value_rejected g d :
    (forall w k, unwrap w = Some k -> w = wrap k) ->
    (forall k n c q, aead_open k n c = Some q -> length n = nonce_len -> c = aead_seal k n q) ->
    (forall k, length (wrap k) < 256) ->
    (forall dek nonce data, length nonce = nonce_len -> d <> sl dek nonce data) ->
    forall p, rd g d <> Ok p.
  Proof.
    intros Hw Ha _ Hne p H. apply read_cases in H. destruct H as (w & nonce & ct & dek & -> & Hnl & Hu & _ & Ho).
    apply (Hne dek nonce p Hnl). rewrite (Hw w dek Hu), (Ha dek nonce ct p Ho Hnl). reflexivity.
  Qed.

  Theorem wrong_master_key_rejected g (wrap' : bytes -> bytes) dek nonce data :
    unwrap (wrap' dek) = None -> length (wrap' dek) < 256 ->
    forall p, rd g (seal wrap' aead_seal dek nonce data) <> Ok p.
  Proof. intros Hu _ p. unfold seal. cbn [app]. rewrite read_framed, Hu. discriminate. Qed.
End Proofs.
