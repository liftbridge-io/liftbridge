(* C14: checkEnvelope with the header-length check never panics, so the publish path stores the decoded
   envelope or the raw bytes. What checkEnvelope accepts is characterised in both directions
   (check_envelope_cases, check_envelope_accepts); the round trips and the CRC rejection are read off those. *)
From LB Require Import Base.Prelude Codec.Envelope.

Section Proofs.
  Variable crc : bytes -> N.

  Lemma check_envelope_cases g data ty r :
    check_envelope crc g data ty = r ->
    match r with
    | Ok p =>
      min_header_len <= length data /\ firstn 4 data = magic /\ nth 4 data 0%N = 0%N /\
      nth 7 data 0%N = ty /\ N.to_nat (nth 5 data 0%N) <= length data /\
      p = skipn (N.to_nat (nth 5 data 0%N)) data /\
      (N.testbit (nth 6 data 0%N) 0 = true ->
         N.to_nat (nth 5 data 0%N) = 12 /\ crc p = be_decode (firstn 4 (skipn 8 data)))
    | Err => True
    | Panic => g = false
    end.
  Proof.
    intros <-. unfold check_envelope.
    destruct (Nat.ltb_spec (length data) min_header_len) as [Hlen|Hlen]; [exact I|].
    destruct (bytes_eqb (firstn 4 data) magic) eqn:Hm; cbn [negb]; [|exact I].
    apply bytes_eqb_eq in Hm.
    destruct (N.eqb_spec (nth 4 data 0%N) 0) as [Hv|Hv]; cbn [negb]; [|exact I].
    set (hl := N.to_nat (nth 5 data 0%N)).
    unfold slice_from.
    destruct (Nat.ltb_spec (length data) hl) as [H2|H2].
    - rewrite orb_true_r, andb_true_r. destruct g; [exact I|reflexivity].
    - destruct (g && _); [exact I|].
      destruct (N.eqb_spec (nth 7 data 0%N) ty) as [Ht|Ht]; cbn [negb]; [|exact I].
      destruct (N.testbit (nth 6 data 0%N) 0).
      + destruct (Nat.eqb_spec hl (min_header_len + 4)) as [E|E]; cbn [negb]; [|exact I].
        rewrite slice_ok by (clear - H2 E; unfold min_header_len in *; lia).
        destruct (N.eqb _ _) eqn:Hc; [|exact I]. apply N.eqb_eq in Hc.
        refine (conj Hlen (conj Hm (conj Hv (conj Ht (conj H2 (conj eq_refl _)))))).
        intros _. split; [exact E|]. rewrite Hc, E. reflexivity.
      + refine (conj Hlen (conj Hm (conj Hv (conj Ht (conj H2 (conj eq_refl _)))))). discriminate.
  Qed.

  Theorem check_envelope_total data ty : check_envelope crc true data ty <> Panic.
  Proof. intros H. discriminate (check_envelope_cases _ _ _ _ H). Qed.

  Theorem crc_mismatch_rejected g data ty :
    N.testbit (nth 6 data 0%N) 0 = true ->
    crc (skipn 12 data) <> be_decode (firstn 4 (skipn 8 data)) ->
    forall p, check_envelope crc g data ty <> Ok p.
  Proof.
    intros Hf Hc p Hok. apply check_envelope_cases in Hok.
    destruct Hok as (_ & _ & _ & _ & _ & Hp & Hcrc).
    destruct (Hcrc Hf) as [H12 Heq]. rewrite H12 in Hp. subst p. contradiction.
  Qed.

  (* The converse, with the header length [hl] and the payload [p] named by the caller. *)
  Lemma check_envelope_accepts g data ty hl p :
    firstn 4 data = magic -> nth 4 data 0%N = 0%N -> nth 5 data 0%N = N.of_nat hl -> nth 7 data 0%N = ty ->
    min_header_len <= hl <= length data -> skipn hl data = p ->
    (N.testbit (nth 6 data 0%N) 0 = true -> hl = 12 /\ crc p = be_decode (firstn 4 (skipn 8 data))) ->
    check_envelope crc g data ty = Ok p.
  Proof.
    intros Hm Hv Hhl Ht [H1 H2] Hp Hf. unfold check_envelope.
    rewrite Hm, Hv, Hhl, Ht, Nat2N.id, bytes_eqb_refl, !N.eqb_refl. cbn [negb].
    rewrite (proj2 (Nat.ltb_ge _ _) (Nat.le_trans _ _ _ H1 H2)), (proj2 (Nat.ltb_ge _ _) H1), (proj2 (Nat.ltb_ge _ _) H2).
    rewrite andb_false_r, slice_from_ok, Hp by exact H2.
    destruct (N.testbit (nth 6 data 0%N) 0); [|reflexivity].
    destruct (Hf eq_refl) as [-> Hc]. cbn [Nat.eqb negb].
    rewrite slice_ok by (clear - H2; unfold min_header_len; lia). rewrite Hc, N.eqb_refl. reflexivity.
  Qed.

  Theorem marshal_roundtrip g ty payload :
    (ty < 256)%N -> check_envelope crc g (marshal ty payload) ty = Ok payload.
  Proof.
    intros _. apply (check_envelope_accepts g _ ty 8); try reflexivity.
    - change (8 <= 8 <= 8 + length payload). lia.
    - discriminate.
  Qed.

  Theorem marshal_crc_roundtrip g ty payload :
    (ty < 256)%N -> (crc payload < 256 ^ 4)%N ->
    check_envelope crc g (marshal_crc crc ty payload) ty = Ok payload.
  Proof.
    intros _ Hc. apply (check_envelope_accepts g _ ty 12); try reflexivity.
    - change (8 <= 12 <= 12 + length payload). lia.
    - intros _. split; [reflexivity|].
      unfold marshal_crc, magic. cbn [app skipn].
      rewrite firstn_be, be_decode_encode by exact Hc. reflexivity.
  Qed.

  Theorem repl_response_total data : unmarshal_repl_response crc true data <> Panic.
  Proof.
    unfold unmarshal_repl_response.
    destruct (check_envelope crc true data 3%N) eqn:E.
    - destruct (Nat.ltb _ _); discriminate.
    - discriminate.
    - destruct (check_envelope_total _ _ E).
  Qed.

  Section Publish.
    Variable msg : Type.
    Variable pb_unmarshal : bytes -> option msg.

    Theorem nats_to_message_cases data :
      (nats_to_message crc msg pb_unmarshal true data = Raw data) \/
      (exists m p, nats_to_message crc msg pb_unmarshal true data = Envelope m /\
                   check_envelope crc true data 0%N = Ok p /\ pb_unmarshal p = Some m).
    Proof.
      unfold nats_to_message.
      destruct (check_envelope crc true data 0%N) as [p| |] eqn:E.
      - destruct (pb_unmarshal p) as [m|] eqn:P; [right; exists m, p; auto | left; reflexivity].
      - left; reflexivity.
      - destruct (check_envelope_total _ _ E).
    Qed.

    Theorem nats_to_message_marshalled m payload :
      pb_unmarshal payload = Some m ->
      nats_to_message crc msg pb_unmarshal true (marshal 0%N payload) = Envelope m.
    Proof.
      intros H. unfold nats_to_message. rewrite marshal_roundtrip by lia. rewrite H. reflexivity.
    Qed.
  End Publish.
End Proofs.
