(* The leader-epoch cache of Repl.EpochCache stays exact along a replica's life, so its answer to
   "where does epoch q end" is Repl.Cluster.last_le. *)
From LB Require Import Base.Prelude Meta.Fsm Repl.Cluster Repl.ClusterProofs Repl.EpochCache.
From LB Require Log.DiskBase.
Open Scope Z_scope.

Fixpoint esorted (c : ecache) : Prop :=
  match c with
  | [] => True
  | (e, s) :: r => (forall e' s', In (e', s') r -> (e < e')%N /\ s <= s') /\ esorted r
  end.

Definition cut (log : list entry) (e : N) (s : Z) : Prop :=
  exists pre post, log = pre ++ post /\ s = Z.of_nat (length pre) /\
    (forall x, In x pre -> (ep x < e)%N) /\ (forall x, In x post -> (e <= ep x)%N).

(* The cache is exact. ci_cut: every line cuts the log at its epoch (at the end of the log while an
   elected epoch has no entry yet). ci_complete: every epoch that occurs in the log has its line. *)
Record CInv (log : list entry) (c : ecache) : Prop := {
  ci_sorted : esorted c;
  ci_cut : forall e s, In (e, s) c -> cut log e s;
  ci_complete : forall x, In x log -> exists s, In (ep x, s) c
}.

Lemma cut_snoc log e s x : cut log e s -> (e <= ep x)%N -> cut (log ++ [x]) e s.
Proof.
  intros (pre & post & -> & -> & Hl & Hg) He. exists pre, (post ++ [x]). split; [symmetry; apply app_assoc|]. split; [reflexivity|].
  split; [exact Hl|]. intros y Hy. apply in_app_or in Hy. destruct Hy as [Hy|[<-|[]]]; [apply (Hg y Hy)|exact He].
Qed.

Lemma cut_firstn log e s t : cut log e s -> s < Z.of_nat t -> cut (firstn t log) e s.
Proof.
  intros (pre & post & -> & -> & Hl & Hg) Hlt. exists pre, (firstn (t - length pre) post). rewrite firstn_app, firstn_all2 by (clear - Hlt; lia).
  split; [reflexivity|]. split; [reflexivity|]. split; [exact Hl|]. intros y Hy. apply (Hg y (In_firstn _ _ _ Hy)).
Qed.

(* the same predicate on the commit log's own cache model is Log.DiskBase.csorted (convertible); its two
   structural lemmas serve here *)
Lemma esorted_app a b : esorted (a ++ b) <->
  esorted a /\ esorted b /\ forall e s e' s', In (e, s) a -> In (e', s') b -> (e < e')%N /\ s <= s'.
Proof. exact (DiskBase.csorted_app a b). Qed.

Lemma esorted_snoc c e s : esorted c -> (forall e' s', In (e', s') c -> (e' < e)%N /\ s' <= s) -> esorted (c ++ [(e, s)]).
Proof.
  intros Hs Hlt. apply esorted_app. split; [exact Hs|]. split; [split; [intros e' s' []|exact I]|].
  intros e1 s1 e2 s2 H1 [[= <- <-]|[]]. apply (Hlt e1 s1 H1).
Qed.

Lemma esorted_split pre e s post : esorted (pre ++ (e, s) :: post) -> forall e' s', In (e', s') pre -> (e' < e)%N.
Proof. intros Hs e' s' Hin. apply esorted_app in Hs. destruct Hs as (_ & _ & H). apply (H e' s' e s Hin (or_introl eq_refl)). Qed.

Lemma esorted_filter p c : esorted c -> esorted (filter p c).
Proof. exact (DiskBase.csorted_filter p c). Qed.

Lemma latest_snoc c e s : latest_epoch (c ++ [(e, s)]) = e /\ latest_start (c ++ [(e, s)]) = s.
Proof. unfold latest_epoch, latest_start. rewrite rev_app_distr. split; reflexivity. Qed.

Lemma latest_in c : c = [] \/ In (latest_epoch c, latest_start c) c.
Proof.
  destruct c as [|[e s] c' _] using rev_ind; [left; reflexivity|right]. destruct (latest_snoc c' e s) as [-> ->]. apply in_elt.
Qed.

Lemma esorted_latest c e s : esorted c -> In (e, s) c -> (e <= latest_epoch c)%N /\ s <= latest_start c.
Proof.
  destruct c as [|[el sl] c' _] using rev_ind; [intros _ []|]. intros Hs Hin.
  destruct (latest_snoc c' el sl) as [-> ->]. apply esorted_app in Hs. destruct Hs as (_ & _ & H).
  apply in_app_or in Hin. destruct Hin as [Hin|[[= <- <-]|[]]]; [destruct (H _ _ _ _ Hin (or_introl eq_refl)); lia|lia].
Qed.

Lemma assign_cases c e o : latest_start c <= o -> assign c e o = if (latest_epoch c <? e)%N then c ++ [(e, o)] else c.
Proof. intros H. unfold assign. rewrite (proj2 (Z.leb_le _ _) H), andb_true_r. reflexivity. Qed.

Lemma find_above_least c q e s : esorted c -> find_above c q = Some (e, s) ->
  (q < e)%N /\ In (e, s) c /\ forall e' s', In (e', s') c -> (q < e')%N -> (e <= e')%N.
Proof.
  unfold find_above. induction c as [|[e0 s0] r IH]; [discriminate|]. intros [H1 H2]. cbn [find fst]. destruct (N.ltb_spec q e0).
  - intros [= <- <-]. split; [assumption|]. split; [left; reflexivity|]. intros e' s' [[= <- <-]|Hin] _; [lia|destruct (H1 _ _ Hin); lia].
  - intros Hf. destruct (IH H2 Hf) as (A & B & C). split; [exact A|]. split; [right; exact B|]. intros e' s' [[= <- <-]|Hin] Hq; [lia|apply (C e' s' Hin Hq)].
Qed.

Theorem answer_is_last_le log c q : CInv log c -> answer true c log q = last_le q log.
Proof.
  intros [Hs Hb Hc]. unfold answer. destruct (find_above c q) as [[e s]|] eqn:Ef.
  - destruct (find_above_least c q e s Hs Ef) as (Hqe & Hin & Hleast).
    destruct (Hb e s Hin) as (pre & post & -> & -> & Hlt & Hge). symmetry. apply last_le_split.
    + intros x Hx. destruct (N.leb_spec (ep x) q) as [Hle|Hgt]; [exact Hle|exfalso].
      (* an epoch between q and e in the log has its own cache entry, which find would have returned *)
      destruct (Hc x (in_or_app _ _ _ (or_introl Hx))) as (s' & Hin'). apply (N.lt_irrefl (ep x)), (N.lt_le_trans _ _ _ (Hlt x Hx)), (Hleast _ _ Hin' Hgt).
    + intros x Hx. apply (N.lt_le_trans _ _ _ Hqe (Hge x Hx)).
  - (* no cached epoch above q: every entry is within q *)
    rewrite <- (app_nil_r log) at 2. rewrite (last_le_split q log []); [reflexivity| |intros x []].
    intros x Hx. destruct (Hc x Hx) as (s & Hin). unfold find_above in Ef. pose proof (find_none _ _ Ef _ Hin) as H. cbn [fst] in H.
    destruct (N.ltb_spec q (ep x)); [discriminate|assumption].
Qed.

Lemma cinv_latest log c x : CInv log c -> In x log -> (ep x <= latest_epoch c)%N.
Proof. intros HI Hx. destruct (ci_complete log c HI x Hx) as (s & Hin). apply (esorted_latest c _ s (ci_sorted log c HI) Hin). Qed.

Lemma cinv_start_le log c : CInv log c -> latest_start c <= Z.of_nat (length log).
Proof.
  intros HI. destruct (latest_in c) as [->|Hl]; [unfold latest_start; cbn; lia|].
  destruct (ci_cut log c HI _ _ Hl) as (pre & post & -> & -> & _). rewrite app_length. clear. lia.
Qed.

Lemma elect_cinv log c e : CInv log c -> (latest_epoch c < e)%N -> CInv log (c ++ [(e, Z.of_nat (length log))]).
Proof.
  intros HI He. pose proof HI as [Hs Hb Hc]. pose proof (cinv_start_le log c HI) as Hst. constructor.
  - apply esorted_snoc; [exact Hs|]. intros e' s' Hin. destruct (esorted_latest c e' s' Hs Hin) as [He' Hs']. clear - He' Hs' He Hst. lia.
  - intros e0 s0 Hin. apply in_app_or in Hin. destruct Hin as [Hin|[[= <- <-]|[]]]; [apply (Hb e0 s0 Hin)|].
    exists log, []. split; [symmetry; apply app_nil_r|]. split; [reflexivity|]. split; [|intros y []].
    intros y Hy. apply (N.le_lt_trans _ _ _ (cinv_latest log c y HI Hy) He).
  - intros y Hy. destruct (Hc y Hy) as (s & Hin). exists s. apply in_or_app. left. exact Hin.
Qed.

Lemma continue_cinv log c x : CInv log c -> ep x = latest_epoch c -> (0 < ep x)%N -> CInv (log ++ [x]) c.
Proof.
  intros HI Heq Hpos. pose proof HI as [Hs Hb Hc]. constructor; [exact Hs| |].
  - intros e s Hin. apply cut_snoc; [apply (Hb e s Hin)|]. rewrite Heq. apply (esorted_latest c e s Hs Hin).
  - intros y Hy. apply in_app_or in Hy. destruct Hy as [Hy|[<-|[]]]; [apply Hc; exact Hy|]. exists (latest_start c). rewrite Heq.
    destruct (latest_in c) as [->|Hl]; [|exact Hl]. unfold latest_epoch in Heq. cbn in Heq. clear - Heq Hpos. lia.
Qed.

(* an entry of a new epoch is an election at its offset followed by an entry of the latest epoch *)
Lemma append_one log c x : CInv log c -> (latest_epoch c <= ep x)%N -> (0 < ep x)%N ->
  CInv (log ++ [x]) (assign c (ep x) (Z.of_nat (length log))).
Proof.
  intros HI Hlat Hpos. rewrite (assign_cases _ _ _ (cinv_start_le log c HI)). destruct (N.ltb_spec (latest_epoch c) (ep x)) as [Hlt|Hge].
  - apply continue_cinv; [apply elect_cinv; assumption|symmetry; apply latest_snoc|exact Hpos].
  - apply continue_cinv; [exact HI|apply N.le_antisymm; assumption|exact Hpos].
Qed.

Lemma append_all es : forall log c, CInv log c -> mono (log ++ es) -> (forall x, In x es -> (latest_epoch c <= ep x)%N /\ (0 < ep x)%N) ->
  CInv (log ++ es) (assign_all c es (Z.of_nat (length log))).
Proof.
  induction es as [|x r IH]; intros log c HI Hm Hes; cbn [assign_all]; [rewrite app_nil_r; exact HI|].
  destruct (Hes x (or_introl eq_refl)) as [Hl Hp].
  replace (log ++ x :: r) with ((log ++ [x]) ++ r) in * by (rewrite <- app_assoc; reflexivity).
  replace (Z.of_nat (length log) + 1) with (Z.of_nat (length (log ++ [x]))) by (rewrite app_length; cbn; lia).
  apply IH; [apply append_one; assumption|exact Hm|].
  intros y Hy. destruct (Hes y (or_intror Hy)) as [Hl' Hp']. split; [|exact Hp'].
  (* the latest cached epoch is ep x at most, and ep x <= ep y *)
  unfold assign. destruct (_ && _); [|exact Hl']. rewrite (proj1 (latest_snoc _ _ _)). apply (mono_app _ _ Hm x y); [apply in_elt|exact Hy].
Qed.

Lemma truncate_cinv log c t : CInv log c -> CInv (firstn t log) (truncate_cache c (Z.of_nat t)).
Proof.
  intros [Hs Hb Hc]. unfold truncate_cache. constructor.
  - apply esorted_filter, Hs.
  - intros e s Hin. apply filter_In in Hin. destruct Hin as [Hin Hlt]. apply cut_firstn; [apply (Hb e s Hin)|apply Z.ltb_lt, Hlt].
  - intros y Hy. destruct (Hc y (In_firstn _ _ _ Hy)) as (s & Hin). exists s. apply filter_In. split; [exact Hin|]. cbn [snd].
    destruct (Z.ltb_spec s (Z.of_nat t)) as [|Hts]; [reflexivity|exfalso].
    (* a line at or beyond the cut has all of what is kept below its epoch *)
    destruct (Hb _ _ Hin) as (pre & post & -> & -> & Hl & _). rewrite firstn_app in Hy. replace (t - length pre)%nat with 0%nat in Hy by (clear - Hts; lia).
    rewrite firstn_O, app_nil_r in Hy. apply (N.lt_irrefl _ (Hl y (In_firstn _ _ _ Hy))).
Qed.

(* 0 < ep x: latest_epoch [] = 0 stands for "no epoch yet", and assign records only an epoch above the
   latest, so entries of epoch 0 would never get their line in the cache. *)
Definition op_ok (st : list entry * ecache) (o : cop) : Prop :=
  let '(log, c) := st in
  match o with
  | CAppend es => mono (log ++ es) /\ forall x, In x es -> (latest_epoch c <= ep x)%N /\ (0 < ep x)%N
  | CElect e => (latest_epoch c < e)%N
  | CTruncate t => (t <= length log)%nat
  end.

Theorem cstep_cinv st o : CInv (fst st) (snd st) -> op_ok st o -> CInv (fst (cstep true st o)) (snd (cstep true st o)).
Proof.
  destruct st as [log c]. cbn [fst snd]. intros HI Hok. destruct o as [es|e|t]; cbn [cstep op_ok fst snd] in *.
  - destruct Hok as [Hm Hes]. apply append_all; assumption.
  - unfold elect_cache. rewrite (assign_cases _ _ _ (cinv_start_le log c HI)), (proj2 (N.ltb_lt _ _) Hok). apply elect_cinv; assumption.
  - apply truncate_cinv, HI.
Qed.

Lemma cinv_empty : CInv [] [].
Proof. constructor; [exact I|intros e s []|intros x []]. Qed.

Fixpoint ops_ok (st : list entry * ecache) (ops : list cop) : Prop :=
  match ops with
  | [] => True
  | o :: r => op_ok st o /\ ops_ok (cstep true st o) r
  end.

Lemma crun_cinv ops : forall st, CInv (fst st) (snd st) -> ops_ok st ops ->
  CInv (fst (fold_left (cstep true) ops st)) (snd (fold_left (cstep true) ops st)).
Proof.
  induction ops as [|o r IH]; intros st HI Hok; cbn [fold_left]; [exact HI|]. destruct Hok as [H1 H2]. apply IH; [apply cstep_cinv; assumption|exact H2].
Qed.
