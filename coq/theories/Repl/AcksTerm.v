(* C04: an ALL-policy acknowledgement rests on what the in-sync replicas reported in the current
   leader term -- not on anything the leader remembers from a term it led before. *)
From LB Require Import Base.Prelude Repl.Acks Repl.AcksProofs.
Open Scope Z_scope.

Lemma told_ge g r : -1 <= told g r.
Proof. induction g as [|[r0 o0] g IH]; cbn [told fold_right fst snd]; [lia|]. fold (told g r). destruct (N.eqb r0 r); lia. Qed.

Lemma told_cons r0 o0 g r : told ((r0, o0) :: g) r = if N.eqb r0 r then Z.max (told g r) o0 else told g r.
Proof. reflexivity. Qed.

Definition Believes (s : lstate) (g : reports) : Prop :=
  forall r o, In (r, o) (l_isr s) -> r <> 0%N -> o <= told g r.

Lemma believes_extends ms s s' g : Believes s g -> extends ms s s' -> Believes s' g.
Proof.
  intros HB (_ & _ & _ & _ & Hisr & _) r o Hin Hr. destruct (Hisr r o Hin) as (o' & Hin' & _ & E). rewrite <- (E Hr). apply (HB r o' Hin' Hr).
Qed.

Theorem step_believes s g x s' out : Believes s g -> step s x = (s', out) -> Believes s' (gstep g x).
Proof.
  intros HB H. replace s' with (fst (step s x)) by (rewrite H; reflexivity). clear H.
  destruct x as [ms|r0 o0|r0|r0|keep foreign hw|ms]; cbn [step gstep].
  - exact (believes_extends _ _ _ g HB (proj1 (publish_step_sound s ms))).
  - destruct (existsb (N.eqb r0) (l_replicas s) && negb (N.eqb r0 0)); [eapply believes_extends; [|apply (commit_extends [])]|]; intros r o Hin Hr; rewrite told_cons.
    + destruct (set_offset_in _ _ _ _ _ Hin) as [H2|(-> & o' & H2 & ->)].
      * specialize (HB r o H2 Hr). clear - HB. destruct (N.eqb r0 r); lia.
      * specialize (HB r0 o' H2 Hr). rewrite N.eqb_refl. clear - HB. lia.
    + specialize (HB r o Hin Hr). clear - HB. destruct (N.eqb r0 r); lia.
  - eapply believes_extends; [|apply (commit_extends [])]. intros r o Hin Hr. apply filter_In in Hin. apply HB; [apply Hin|exact Hr].
  - destruct (existsb (N.eqb r0) (map fst (l_isr s))); [exact HB|].
    intros r o Hin Hr. cbn [fst l_isr] in Hin. apply in_app_or in Hin. destruct Hin as [Hin|[[= <- <-]|[]]]; [apply HB; assumption|apply told_ge].
  - intros r o Hin Hr. cbn [fst l_isr] in Hin. apply in_map_iff in Hin. destruct Hin as ([r1 o1] & [= <- <-] & _). cbn [fst].
    destruct (N.eqb_spec r1 0) as [->|_]; [contradiction|]. cbn [told fold_right]. lia.
  - exact (believes_extends _ _ _ g HB (proj1 (api_step_sound s ms))).
Qed.

Definition all_ack_told (s' : lstate) (g' : reports) (a : ack) : Prop :=
  ak_kind a = AOk -> ak_policy a = PAll -> forall r o, In (r, o) (l_isr s') -> r <> 0%N -> ak_offset a <= told g' r.

Theorem step_all_ack_told s g x s' out : QInv s -> Believes s g -> step s x = (s', out) ->
  forall a, In a out -> all_ack_told s' (gstep g x) a.
Proof.
  intros HQ HB H a Ha Hk Hp r o Hin Hr. destruct (step_acks s x s' out HQ H) as (_ & _ & Hm). specialize (Hm a Ha).
  unfold ack_meaning in Hm. rewrite Hk, Hp in Hm. destruct Hm as (_ & _ & Hall & _).
  pose proof (step_believes s g x s' out HB H r o Hin Hr). specialize (Hall r o Hin). lia.
Qed.

Fixpoint all_told_ok (s : lstate) (g : reports) (xs : list lstep) : Prop :=
  match xs with
  | [] => True
  | x :: r => let '(s', out) := step s x in (forall a, In a out -> all_ack_told s' (gstep g x) a) /\ all_told_ok s' (gstep g x) r
  end.

Theorem every_all_ack_rests_on_this_terms_reports xs : forall s g, QInv s -> Believes s g -> all_told_ok s g xs.
Proof.
  induction xs as [|x r IH]; intros s g HQ HB; cbn [all_told_ok]; [exact I|]. destruct (step s x) as [s' out] eqn:E. split.
  - apply (step_all_ack_told s g x s' out HQ HB E).
  - apply IH; [apply (step_acks s x s' out HQ E)|apply (step_believes s g x s' out HB E)].
Qed.
