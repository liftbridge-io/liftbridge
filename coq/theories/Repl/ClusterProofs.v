(* Safety of the replication protocol model (Repl.Cluster): committed entries stay on every
   in-sync replica and on every leader, and any two replicas agree at every offset at or below
   both of their high watermarks. *)
From LB Require Import Base.Prelude Meta.Fsm Meta.FsmProofs Repl.Cluster.
Open Scope Z_scope.

Definition prefix {A} (a b : list A) : Prop := exists t, b = a ++ t.

Lemma prefix_refl {A} (a : list A) : prefix a a.
Proof. exists []. rewrite app_nil_r. reflexivity. Qed.

Lemma prefix_trans {A} (a b c : list A) : prefix a b -> prefix b c -> prefix a c.
Proof. intros [t1 ->] [t2 ->]. exists (t1 ++ t2). rewrite app_assoc. reflexivity. Qed.

Lemma prefix_app {A} (a t : list A) : prefix a (a ++ t).
Proof. exists t. reflexivity. Qed.

Lemma prefix_length {A} (a b : list A) : prefix a b -> (length a <= length b)%nat.
Proof. intros [t ->]. rewrite app_length. lia. Qed.

Lemma prefix_firstn {A} (a : list A) n : prefix (firstn n a) a.
Proof. exists (skipn n a). symmetry. apply firstn_skipn. Qed.

Lemma prefix_nth {A} (a b : list A) o x : prefix a b -> nth_error a o = Some x -> nth_error b o = Some x.
Proof. intros [t ->] H. rewrite nth_error_app1; [exact H|]. apply nth_error_Some. congruence. Qed.

Lemma held_below_hw {A} (com l L : list A) h : prefix com L -> prefix l L -> h + 1 <= Z.of_nat (length com) ->
  forall o e, Z.of_nat o <= h -> nth_error l o = Some e -> nth_error com o = Some e.
Proof. intros [t ->] Hl Hh o e Ho Hn. apply (prefix_nth _ _ _ _ Hl) in Hn. rewrite nth_error_app1 in Hn by lia. exact Hn. Qed.

Lemma prefix_of_firstn {A} (a b : list A) n : prefix a b -> (length a <= n)%nat -> prefix a (firstn n b).
Proof.
  intros [t ->] H. rewrite firstn_app. rewrite firstn_all2 by lia. apply prefix_app.
Qed.

Lemma prefix_comparable {A} (a b c : list A) : prefix a c -> prefix b c -> (length a <= length b)%nat -> prefix a b.
Proof.
  intros Ha [tb ->] Hl. rewrite <- (firstn_app_exact b tb). apply prefix_of_firstn; assumption.
Qed.

Lemma prefix_extend {A} (a b : list A) n : prefix a b -> prefix (a ++ firstn n (skipn (length a) b)) b.
Proof.
  intros [t ->]. rewrite skipn_app_exact. exists (skipn n t). rewrite <- app_assoc, firstn_skipn. reflexivity.
Qed.

Lemma nth_agree_prefix {A} (a : list A) : forall b, (forall o e, nth_error a o = Some e -> nth_error b o = Some e) -> prefix a b.
Proof.
  induction a as [|x a IH]; intros b H; [exists b; reflexivity|].
  destruct b as [|y b]; [specialize (H 0%nat x eq_refl); discriminate|].
  pose proof (H 0%nat x eq_refl) as H0. cbn in H0. injection H0 as ->.
  destruct (IH b) as [t ->]; [intros o e Ho; apply (H (S o) e Ho)|]. exists t. reflexivity.
Qed.

Definition mono (l : list entry) : Prop := forall i j e1 e2, (i <= j)%nat -> nth_error l i = Some e1 -> nth_error l j = Some e2 -> (ep e1 <= ep e2)%N.

Lemma mono_prefix a b : prefix a b -> mono b -> mono a.
Proof. intros Hp Hm i j e1 e2 Hij H1 H2. apply (Hm i j); [exact Hij|apply (prefix_nth a b); assumption|apply (prefix_nth a b); assumption]. Qed.

Lemma mono_snoc l e : mono l -> (forall x, In x l -> (ep x <= ep e)%N) -> mono (l ++ [e]).
Proof.
  intros Hm Hle i j e1 e2 Hij H1 H2. destruct (nth_error_snoc _ _ _ _ H1) as [H1'|[-> ->]], (nth_error_snoc _ _ _ _ H2) as [H2'|[-> ->]].
  - apply (Hm i j); assumption.
  - apply Hle, (nth_error_In _ _ H1').
  - assert (j < length l)%nat by (apply nth_error_Some; congruence). lia.
  - apply N.le_refl.
Qed.

Lemma last_epoch_snoc l e : last_epoch (l ++ [e]) = ep e.
Proof. unfold last_epoch. rewrite rev_app_distr. reflexivity. Qed.

Lemma mono_app a b : mono (a ++ b) -> forall x y, In x a -> In y b -> (ep x <= ep y)%N.
Proof.
  intros Hm x y Hx Hy. apply In_nth_error in Hx, Hy. destruct Hx as (i & Hi), Hy as (j & Hj).
  assert (i < length a)%nat by (apply nth_error_Some; congruence).
  apply (Hm i (length a + j)%nat); [lia|rewrite nth_error_app1; assumption|rewrite nth_error_app2 by lia].
  replace (length a + j - length a)%nat with j by lia. exact Hj.
Qed.

Lemma mono_last l x : mono l -> In x l -> (ep x <= last_epoch l)%N.
Proof.
  intros Hm Hin. destruct (exists_last (l := l)) as (l' & e & ->); [intros ->; destruct Hin|].
  rewrite last_epoch_snoc. apply in_app_or in Hin. destruct Hin as [Hin|[<-|[]]]; [apply (mono_app _ _ Hm x e Hin), in_eq|apply N.le_refl].
Qed.

Lemma last_le_from_app q a b : forall pos acc,
  last_le_from q (a ++ b) pos acc = last_le_from q b (pos + Z.of_nat (length a)) (last_le_from q a pos acc).
Proof.
  induction a as [|e r IH]; intros pos acc; cbn [app length last_le_from]; [rewrite Z.add_0_r; reflexivity|].
  rewrite IH, Nat2Z.inj_succ, <- Z.add_1_l, Z.add_assoc. reflexivity.
Qed.

Lemma last_le_from_bounds q l : forall pos acc, acc < pos -> acc <= last_le_from q l pos acc < pos + Z.of_nat (length l).
Proof.
  induction l as [|e r IH]; intros pos acc H; cbn [last_le_from length]; [lia|].
  destruct (ep e <=? q)%N; [specialize (IH (pos + 1) pos)|specialize (IH (pos + 1) acc)]; lia.
Qed.

Lemma last_le_from_above q l : (forall x, In x l -> (q < ep x)%N) -> forall pos acc, last_le_from q l pos acc = acc.
Proof.
  induction l as [|e r IH]; intros H pos acc; cbn [last_le_from]; [reflexivity|].
  rewrite (proj2 (N.leb_gt _ _) (H e (or_introl eq_refl))). apply IH. intros x Hx. apply H. right. exact Hx.
Qed.

Lemma last_le_lt_length q l : last_le q l < Z.of_nat (length l).
Proof. apply (last_le_from_bounds q l 0 (-1)). reflexivity. Qed.

Lemma last_le_pre q pre post : (forall x, In x pre -> (ep x <= q)%N) -> Z.of_nat (length pre) - 1 <= last_le q (pre ++ post).
Proof.
  intros Hpre. unfold last_le. rewrite last_le_from_app. destruct pre as [|e p _] using rev_ind; [apply last_le_from_bounds; reflexivity|].
  rewrite last_le_from_app. cbn [last_le_from]. rewrite (proj2 (N.leb_le _ _) (Hpre e (in_elt e p []))), app_length. cbn [length].
  apply (Z.le_trans _ (0 + Z.of_nat (length p))); [lia|apply last_le_from_bounds; lia].
Qed.

Lemma last_le_split q pre post : (forall x, In x pre -> (ep x <= q)%N) -> (forall x, In x post -> (q < ep x)%N) ->
  last_le q (pre ++ post) = Z.of_nat (length pre) - 1.
Proof.
  intros Hpre Hpost. pose proof (last_le_pre q pre [] Hpre) as H1. pose proof (last_le_lt_length q pre) as H2. rewrite app_nil_r in H1.
  unfold last_le in *. rewrite last_le_from_app, (last_le_from_above q post Hpost). lia.
Qed.

Definition chain (r L : list entry) : Prop :=
  exists k, (k <= length r)%nat /\ (k <= length L)%nat /\ firstn k r = firstn k L /\
            forall e1 e2, In e1 (skipn k L) -> In e2 (skipn k r) -> (ep e2 < ep e1)%N.

Lemma chain_iff r L : chain r L <-> exists p a b, r = p ++ a /\ L = p ++ b /\ forall e1 e2, In e1 b -> In e2 a -> (ep e2 < ep e1)%N.
Proof.
  split.
  - intros (k & _ & _ & Heq & Hnewer). exists (firstn k r), (skipn k r), (skipn k L).
    split; [symmetry; apply firstn_skipn|]. split; [rewrite Heq; symmetry; apply firstn_skipn|exact Hnewer].
  - intros (p & a & b & -> & -> & Hnewer). exists (length p). rewrite !app_length, !firstn_app_exact, !skipn_app_exact.
    split; [apply Nat.le_add_r|]. split; [apply Nat.le_add_r|]. split; [reflexivity|exact Hnewer].
Qed.

Lemma chain_prefix r L : prefix r L -> chain r L.
Proof.
  intros [t ->]. apply chain_iff. exists r, [], t. split; [symmetry; apply app_nil_r|]. split; [reflexivity|]. intros e1 e2 _ [].
Qed.

(* the common part with the new leader's log L' is the old common part, or all of L' if L' is shorter *)
Lemma chain_new_leader r L L' : chain r L -> prefix L' L -> chain r L'.
Proof.
  intros Hc [t Ht]. apply chain_iff in Hc. destruct Hc as (p & a & b & -> & -> & Hnewer). apply chain_iff.
  apply app_eq_app in Ht. destruct Ht as (l & [[-> _]|[-> ->]]).
  - exists L', (l ++ a), []. split; [symmetry; apply app_assoc|]. split; [symmetry; apply app_nil_r|]. intros e1 e2 [].
  - exists p, a, l. split; [reflexivity|]. split; [reflexivity|]. intros e1 e2 H1. apply Hnewer, in_or_app. left. exact H1.
Qed.

Lemma chain_snoc r L x : chain r L -> (forall e, In e r -> (ep e <= ep x)%N) ->
  (forall o e, nth_error r o = Some e -> ep e = ep x -> nth_error L o = Some e) -> chain r (L ++ [x]).
Proof.
  intros Hc Hle Hsame. apply chain_iff in Hc. destruct Hc as (p & a & b & -> & -> & Hnewer). apply chain_iff.
  exists p, a, (b ++ [x]). split; [reflexivity|]. split; [symmetry; apply app_assoc|].
  intros e1 e2 H1 H2. apply in_app_or in H1. destruct H1 as [H1|[<-|[]]]; [apply Hnewer; assumption|].
  pose proof (Hle e2 (in_or_app _ _ _ (or_intror H2))) as Hle2. destruct (N.eq_dec (ep e2) (ep x)) as [E|E]; [exfalso|lia].
  (* an entry of a with the epoch of x would be in b at the same offset *)
  destruct (In_nth_error _ _ H2) as (j & Hj). rewrite <- (skipn_app_exact p a), nth_error_skipn in Hj.
  apply (Hsame _ _ Hj) in E. rewrite <- nth_error_skipn, skipn_app_exact in E.
  apply (N.lt_irrefl (ep e2)), (Hnewer e2 e2 (nth_error_In _ _ E) H2).
Qed.

Theorem reconcile_correct r L : chain r L -> mono r ->
  let r' := firstn (Z.to_nat (last_le (last_epoch r) L + 1)) r in
  prefix r' L /\ forall c, prefix c r -> prefix c L -> prefix c r'.
Proof.
  intros Hc Hm. apply chain_iff in Hc. destruct Hc as (p & a & b & -> & -> & Hnewer). cbn zeta.
  assert (Hpre : forall x, In x p -> (ep x <= last_epoch (p ++ a))%N) by (intros x Hx; apply (mono_last _ x Hm), in_or_app; left; exact Hx).
  destruct a as [|y a _] using rev_ind.
  - (* r has nothing beyond the common part: the answer is at or beyond its end and nothing is cut *)
    rewrite app_nil_r in *. pose proof (last_le_pre _ p b Hpre) as Hge. rewrite firstn_all2 by (clear - Hge; lia).
    split; [apply prefix_app|intros c Hc _; exact Hc].
  - (* r goes on beyond the common part p: the leader's answer is the end of p and exactly p is kept *)
    rewrite (app_assoc p a [y]), last_epoch_snoc in *.
    assert (Hq : forall x, In x b -> (ep y < ep x)%N) by (intros x Hx; apply (Hnewer x y Hx), in_elt).
    rewrite (last_le_split _ p b Hpre Hq). replace (Z.to_nat (Z.of_nat (length p) - 1 + 1)) with (length p) by (clear; lia).
    rewrite <- app_assoc, firstn_app_exact. split; [apply prefix_app|].
    (* c is common to both: an entry of c beyond p would be of a later epoch than itself *)
    intros c [t1 H1] [t2 H2]. apply app_eq_app in H1. destruct H1 as (l & [[-> _]|[-> Ha]]); [apply prefix_app|].
    rewrite <- app_assoc in H2. apply app_inv_head in H2. destruct l as [|x l]; [rewrite app_nil_r; apply prefix_refl|exfalso].
    apply (N.lt_irrefl (ep x)), Hnewer; [rewrite H2|rewrite Ha]; left; reflexivity.
Qed.

Lemma mem_in r l : mem r l = true <-> In r l.
Proof. exact (existsb_eqb_in r l). Qed.

Lemma alookup_aset {A} x r (v : A) l : alookup x (aset r v l) = if N.eqb x r then Some v else alookup x l.
Proof. destruct (N.eqb_spec x r) as [->|H]; [apply alookup_aset_same|apply alookup_aset_other; exact H]. Qed.

Lemma log_of_aset c r l x hws ld e isr view sy mi co :
  log_of (mkCl (aset r l (c_logs c)) hws ld e isr view sy mi co) x = if N.eqb x r then l else log_of c x.
Proof. unfold log_of. cbn [c_logs]. rewrite alookup_aset. destruct (N.eqb x r); reflexivity. Qed.

Lemma hw_of_aset c r h x lg ld e isr view sy mi co :
  hw_of (mkCl lg (aset r h (c_hws c)) ld e isr view sy mi co) x = if N.eqb x r then h else hw_of c x.
Proof. unfold hw_of. cbn [c_hws]. rewrite alookup_aset. destruct (N.eqb x r); reflexivity. Qed.

Lemma view_of_aset c r o x lg hws ld e isr sy mi co :
  view_of (mkCl lg hws ld e isr (aset r o (c_view c)) sy mi co) x = if N.eqb x r then o else view_of c x.
Proof. unfold view_of. cbn [c_view]. rewrite alookup_aset. destruct (N.eqb x r); reflexivity. Qed.

Lemma log_set_other c r l r' : r' <> r -> log_of (set_log c r l) r' = log_of c r'.
Proof. intros H. unfold set_log. rewrite log_of_aset. destruct (N.eqb_spec r' r); [contradiction|reflexivity]. Qed.

Lemma hw_aset_same c r h : hw_of (mkCl (c_logs c) (aset r h (c_hws c)) (c_leader c) (c_epoch c) (c_isr c) (c_view c) (c_synced c) (c_min_isr c) (c_committed c)) r = h.
Proof. rewrite hw_of_aset, N.eqb_refl. reflexivity. Qed.

Lemma alookup_map_fun {A} (f : N -> A) l x : alookup x (map (fun y => (y, f y)) l) = if mem x l then Some (f x) else None.
Proof.
  unfold mem. induction l as [|y t IH]; [reflexivity|]. cbn [map alookup existsb]. rewrite (N.eqb_sym x y).
  destruct (N.eqb_spec y x) as [->|_]; [reflexivity|exact IH].
Qed.

Lemma init_log rs L e m x : log_of (init_cluster rs L e m) x = [].
Proof. unfold log_of, init_cluster. cbn [c_logs]. rewrite (alookup_map_fun (fun _ => [])). destruct (mem x rs); reflexivity. Qed.

Lemma init_hw rs L e m x : hw_of (init_cluster rs L e m) x = -1.
Proof. unfold hw_of, init_cluster. cbn [c_hws]. rewrite (alookup_map_fun (fun _ => -1)). destruct (mem x rs); reflexivity. Qed.

Lemma init_view rs L e m x : view_of (init_cluster rs L e m) x = -1.
Proof. unfold view_of, init_cluster. cbn [c_view]. rewrite (alookup_map_fun (fun _ => -1)). destruct (mem x rs); reflexivity. Qed.

Lemma min_view_le c r : In r (c_isr c) -> min_view c <= view_of c r.
Proof.
  unfold min_view. destruct (c_isr c) as [|r0 t]; [intros []|].
  intros [<-|Hin]; [apply (proj1 (fold_min_le (view_of c) t _))|apply (proj2 (fold_min_le (view_of c) t _) r Hin)].
Qed.

Lemma commit_frame c : c_logs (commit c) = c_logs c /\ c_leader (commit c) = c_leader c /\ c_synced (commit c) = c_synced c.
Proof. unfold commit. destruct (Nat.ltb _ _); [|destruct (_ <=? _)]; repeat split. Qed.

(* The proof turns on iC and iK. iC: an entry of the current epoch was written by the current leader, which
   therefore holds it at the same offset. iK: a log and the leader's share a prefix beyond which the leader's
   entries are of later epochs (chain); this is what makes the leader's answer cut exactly the divergent part
   of a reconciling follower (reconcile_correct), and iC is what keeps it when the leader appends (chain_snoc).
   iD: reconciled means prefix of the leader's log. iV: an offset the leader has recorded (-1 = none) was
   reported by a reconciled replica and lies within its log, so the commit rule counts only entries shared
   with the leader. iG, iH1, iH2: the in-sync replicas hold the committed prefix, every HW lies within it,
   and at or below its HW a replica holds committed entries. *)
Record Inv (c : cluster) : Prop := {
  iA : forall r e, In e (log_of c r) -> (ep e <= c_epoch c)%N;
  iB : forall r, mono (log_of c r);
  iC : forall r o e, nth_error (log_of c r) o = Some e -> ep e = c_epoch c -> nth_error (log_of c (c_leader c)) o = Some e;
  iD : forall r, In r (c_synced c) -> prefix (log_of c r) (log_of c (c_leader c));
  iL : In (c_leader c) (c_synced c) /\ In (c_leader c) (c_isr c);
  iK : forall r, chain (log_of c r) (log_of c (c_leader c));
  iV : forall r, In r (c_isr c) -> 0 <= view_of c r -> In r (c_synced c) /\ view_of c r < Z.of_nat (length (log_of c r));
  iG : forall r, In r (c_isr c) -> prefix (c_committed c) (log_of c r);
  iH0 : forall r, -1 <= hw_of c r;
  iH1 : forall r, hw_of c r + 1 <= Z.of_nat (length (c_committed c));
  iH2 : forall r o e, (Z.of_nat o <= hw_of c r) -> nth_error (log_of c r) o = Some e -> nth_error (c_committed c) o = Some e
}.

(* the commit rule on the committed prefix com, when the leader, with log L, moves its HW to m *)
Lemma grow_committed (com L : list entry) m : prefix com L -> m < Z.of_nat (length L) ->
  let com' := if Z.of_nat (length com) <=? m then firstn (Z.to_nat (m + 1)) L else com in
  prefix com com' /\ m + 1 <= Z.of_nat (length com') /\
  forall l, prefix com l -> prefix l L -> m < Z.of_nat (length l) -> prefix com' l.
Proof.
  intros Hp Hm. cbn zeta. destruct (Z.leb_spec (Z.of_nat (length com)) m).
  - split; [apply prefix_of_firstn; [exact Hp|lia]|]. rewrite firstn_length. split; [lia|].
    intros l _ Hl Hml. apply (prefix_comparable _ _ L (prefix_firstn _ _) Hl). rewrite firstn_length. lia.
  - split; [apply prefix_refl|]. split; [lia|]. intros l Hl _ _. exact Hl.
Qed.

Lemma committed_grows_inv c com' : Inv c -> prefix (c_committed c) com' -> (forall r, In r (c_isr c) -> prefix com' (log_of c r)) ->
  Inv (mkCl (c_logs c) (c_hws c) (c_leader c) (c_epoch c) (c_isr c) (c_view c) (c_synced c) (c_min_isr c) com').
Proof.
  intros [HA HB HC HD HL HK HV HG HH0 HH1 HH2] Hext HG'. constructor; try assumption.
  - intros r. pose proof (HH1 r) as H1. pose proof (prefix_length _ _ Hext) as H2. change (hw_of c r + 1 <= Z.of_nat (length com')). clear - H1 H2. lia.
  - intros r o e Ho Hn. apply (prefix_nth _ _ _ _ Hext), (HH2 r o e Ho Hn).
Qed.

Lemma hw_inv c r h : Inv c -> In r (c_synced c) -> -1 <= h -> h + 1 <= Z.of_nat (length (c_committed c)) ->
  Inv (mkCl (c_logs c) (aset r h (c_hws c)) (c_leader c) (c_epoch c) (c_isr c) (c_view c) (c_synced c) (c_min_isr c) (c_committed c)).
Proof.
  intros HI Hr H0 H1. pose proof HI as [HA HB HC HD HL HK HV HG HH0 HH1 HH2].
  constructor; try assumption; intros x; rewrite hw_of_aset; destruct (N.eqb_spec x r) as [->|Hne]; try assumption; auto.
  - apply (held_below_hw _ _ _ h (HG _ (proj2 HL)) (HD r Hr) H1).
  - apply HH2.
Qed.

Lemma commit_inv_grows c : Inv c -> Inv (commit c) /\ prefix (c_committed c) (c_committed (commit c)).
Proof.
  intros HI. unfold commit. destruct (Nat.ltb _ _); [split; [exact HI|apply prefix_refl]|].
  set (m := min_view c). set (L := c_leader c). destruct (Z.leb_spec m (hw_of c L)) as [Hle|Hgt]; [split; [exact HI|apply prefix_refl]|].
  destruct (iL c HI) as [HLs HLi]. pose proof (iH0 c HI L) as H0.
  (* every in-sync replica has reported m or more: it is reconciled and its log reaches beyond m *)
  assert (Hrep : forall r, In r (c_isr c) -> In r (c_synced c) /\ m < Z.of_nat (length (log_of c r))).
  { intros r Hr. pose proof (min_view_le c r Hr) as Hmr. fold m in Hmr.
    destruct (iV c HI r Hr) as [Hs Hv]; [clear - Hgt Hmr H0; lia|]. split; [exact Hs|clear - Hmr Hv; lia]. }
  destruct (grow_committed _ _ m (iG c HI L HLi) (proj2 (Hrep L HLi))) as (Hext & Hlen & Hall). cbn zeta in *.
  split; [|exact Hext]. refine (hw_inv (mkCl _ _ _ _ _ _ _ _ _) L m _ HLs _ Hlen); [|clear - Hgt H0; lia].
  apply committed_grows_inv; [exact HI|exact Hext|]. intros r Hr. destruct (Hrep r Hr) as [Hs Hv].
  apply Hall; [apply (iG c HI r Hr)|apply (iD c HI r Hs)|exact Hv].
Qed.

Lemma isr_view_inv c isr' view' :
  let c' := mkCl (c_logs c) (c_hws c) (c_leader c) (c_epoch c) isr' view' (c_synced c) (c_min_isr c) (c_committed c) in
  Inv c -> In (c_leader c) isr' ->
  (forall r, In r isr' -> prefix (c_committed c) (log_of c r) /\
     (0 <= view_of c' r -> In r (c_synced c) /\ view_of c' r < Z.of_nat (length (log_of c r)))) ->
  Inv c'.
Proof.
  intros c' [HA HB HC HD [HL1 HL2] HK HV HG HH0 HH1 HH2] HL H.
  constructor; try assumption.
  - split; assumption.
  - intros r Hr. apply (H r Hr).
  - intros r Hr. apply (H r Hr).
Qed.

Lemma record_inv c r o : Inv c -> In r (c_synced c) -> o < Z.of_nat (length (log_of c r)) -> Inv (set_view c r o).
Proof.
  intros HI Hr Ho. apply isr_view_inv; [exact HI|apply HI|].
  intros x Hx. split; [apply (iG c HI x Hx)|]. rewrite view_of_aset. destruct (N.eqb_spec x r) as [->|Hne]; [|apply (iV c HI x Hx)].
  intros _. split; assumption.
Qed.

Lemma report_inv c r : Inv c -> In r (c_synced c) -> In r (c_isr c) -> Inv (set_view c r (Z.max (view_of c r) (newest_of c r))).
Proof. intros HI Hr Hi. apply (record_inv c r _ HI Hr). pose proof (iV c HI r Hi) as HV. unfold newest_of. clear - HV. lia. Qed.

Lemma shrink_inv c r : Inv c -> r <> c_leader c ->
  Inv (mkCl (c_logs c) (c_hws c) (c_leader c) (c_epoch c) (filter (fun x => negb (N.eqb x r)) (c_isr c)) (c_view c) (c_synced c) (c_min_isr c) (c_committed c)).
Proof.
  intros HI Hr. apply isr_view_inv; [exact HI|apply in_filter_neqb; split; [apply HI|congruence]|].
  intros x Hx. apply filter_In in Hx. destruct Hx as [Hx _]. split; [apply (iG c HI x Hx)|apply (iV c HI x Hx)].
Qed.

(* A reconciled replica that holds everything committed joins the in-sync set: KExpand's replica,
   whose log is as long as the leader's, is one; Repl.Fallback's expand_behind is this step. *)
Lemma expand_inv c r : Inv c -> In r (c_synced c) -> (length (c_committed c) <= length (log_of c r))%nat ->
  Inv (mkCl (c_logs c) (c_hws c) (c_leader c) (c_epoch c) (c_isr c ++ [r]) (aset r (-1) (c_view c)) (c_synced c) (c_min_isr c) (c_committed c)).
Proof.
  intros HI Hr Hlen. apply isr_view_inv; [exact HI|apply in_or_app; left; apply HI|].
  intros x Hx. rewrite view_of_aset. destruct (N.eqb_spec x r) as [->|Hne].
  - split; [|lia]. apply (prefix_comparable _ _ (log_of c (c_leader c))); [apply (iG c HI), HI|apply (iD c HI r Hr)|exact Hlen].
  - apply in_app_or in Hx. destruct Hx as [Hx|[E|[]]]; [|congruence]. split; [apply (iG c HI x Hx)|apply (iV c HI x Hx)].
Qed.

(* Whatever prefix of the leader's log replaces the follower's, the log's epochs, its agreement with the
   leader's log and what it holds below its HW need no argument; only an in-sync follower has something to keep. *)
Lemma follower_log_inv c r l sy : Inv c -> r <> c_leader c -> prefix l (log_of c (c_leader c)) ->
  (In r (c_isr c) -> prefix (c_committed c) l /\ (0 <= view_of c r -> view_of c r < Z.of_nat (length l))) ->
  incl (c_synced c) sy -> incl sy (r :: c_synced c) ->
  Inv (mkCl (aset r l (c_logs c)) (c_hws c) (c_leader c) (c_epoch c) (c_isr c) (c_view c) sy (c_min_isr c) (c_committed c)).
Proof.
  intros HI HrL Hp Hisr Hs1 Hs2. pose proof HI as [HA HB HC HD [HL1 HL2] HK HV HG HH0 HH1 HH2].
  assert (HLr : N.eqb (c_leader c) r = false) by (apply N.eqb_neq; congruence).
  constructor; cbn [c_leader c_epoch c_isr c_synced c_committed]; rewrite ?log_of_aset, ?HLr; try assumption;
    try (intros x; rewrite log_of_aset; destruct (N.eqb_spec x r) as [->|Hne]).
  - intros e Hin. destruct Hp as [t Ht]. apply (HA (c_leader c)). rewrite Ht. apply in_or_app. left. exact Hin.
  - apply HA.
  - apply (mono_prefix _ _ Hp), HB.
  - apply HB.
  - intros o e Hn _. apply (prefix_nth _ _ _ _ Hp Hn).
  - apply HC.
  - intros _. exact Hp.
  - intros Hx. apply HD. destruct (Hs2 _ Hx); [congruence|assumption].
  - split; [apply Hs1; exact HL1|exact HL2].
  - apply chain_prefix, Hp.
  - apply HK.
  - intros Hx Hv. destruct (HV r Hx Hv). split; [apply Hs1; assumption|apply (Hisr Hx), Hv].
  - intros Hx Hv. destruct (HV x Hx Hv). split; [apply Hs1; assumption|assumption].
  - intros Hx. apply (Hisr Hx).
  - apply HG.
  - apply (held_below_hw _ l _ _ (HG _ HL2) Hp (HH1 r)).
  - apply HH2.
Qed.

Lemma fetch_log_inv c r n : Inv c -> In r (c_synced c) -> r <> c_leader c ->
  Inv (set_log c r (log_of c r ++ firstn n (skipn (length (log_of c r)) (log_of c (c_leader c))))).
Proof.
  intros HI Hr HrL. apply (follower_log_inv c r _ (c_synced c)); [exact HI|exact HrL|apply prefix_extend, (iD c HI r Hr)| |apply incl_refl|apply incl_tl, incl_refl].
  intros Hx. split; [apply (prefix_trans _ (log_of c r)); [apply (iG c HI r Hx)|apply prefix_app]|].
  intros Hv. destruct (iV c HI r Hx Hv) as [_ H]. rewrite app_length. clear - H. lia.
Qed.

Lemma reconcile_inv c r : Inv c -> ~ In r (c_synced c) ->
  Inv (mkCl (aset r (firstn (Z.to_nat (last_le (last_epoch (log_of c r)) (log_of c (c_leader c)) + 1)) (log_of c r)) (c_logs c))
            (c_hws c) (c_leader c) (c_epoch c) (c_isr c) (c_view c) (r :: c_synced c) (c_min_isr c) (c_committed c)).
Proof.
  intros HI Hns. pose proof (iL c HI) as [HL1 HL2].
  destruct (reconcile_correct _ _ (iK c HI r) (iB c HI r)) as [Hpre Hkeep].
  apply (follower_log_inv c r _ (r :: c_synced c)); [exact HI|congruence|exact Hpre| |apply incl_tl, incl_refl|apply incl_refl].
  intros Hx. split; [apply Hkeep; apply (iG c HI); assumption|]. intros Hv. destruct (iV c HI r Hx Hv). contradiction.
Qed.

Lemma leader_append_inv c v : Inv c -> Inv (set_log c (c_leader c) (log_of c (c_leader c) ++ [(c_epoch c, v)])).
Proof.
  intros HI. pose proof HI as [HA HB HC HD [HL1 HL2] HK HV HG HH0 HH1 HH2]. set (L := c_leader c) in *. set (x := (c_epoch c, v)).
  constructor; cbn [set_log c_leader c_epoch c_isr c_synced c_committed]; fold L; unfold set_log; rewrite ?log_of_aset, ?N.eqb_refl; try assumption; try (split; assumption);
    try (intros r; rewrite log_of_aset; destruct (N.eqb_spec r L) as [->|Hne]).
  - intros e Hin. apply in_app_or in Hin. destruct Hin as [Hin|[<-|[]]]; [apply (HA L), Hin|apply N.le_refl].
  - apply HA.
  - apply mono_snoc; [apply HB|apply HA].
  - apply HB.
  - intros o e Hn _. exact Hn.
  - intros o e Hn He. apply (prefix_nth _ _ _ _ (prefix_app _ _)), (HC r o e Hn He).
  - intros _. apply prefix_refl.
  - intros Hr. apply (prefix_trans _ _ _ (HD r Hr)), prefix_app.
  - apply chain_prefix, prefix_refl.
  - apply chain_snoc; [apply HK|apply HA|apply HC].
  - intros Hr Hv. destruct (HV L Hr Hv) as [H1 H2]. split; [exact H1|]. rewrite app_length. apply (Z.lt_le_trans _ _ _ H2). clear. lia.
  - apply HV.
  - intros Hr. apply (prefix_trans _ _ _ (HG L Hr)), prefix_app.
  - apply HG.
  - apply (held_below_hw _ _ _ _ (prefix_trans _ _ _ (HG L HL2) (prefix_app _ _)) (prefix_refl _) (HH1 L)).
  - apply HH2.
Qed.

Definition published (c : cluster) (v : N) : cluster :=
  let c1 := set_log c (c_leader c) (log_of c (c_leader c) ++ [(c_epoch c, v)]) in set_view c1 (c_leader c) (newest_of c1 (c_leader c)).

Lemma published_inv c v : Inv c -> Inv (published c v).
Proof. intros HI. pose proof (leader_append_inv c v HI) as H1. apply (record_inv _ _ _ H1); [apply H1|unfold newest_of; lia]. Qed.

(* the new leader forgets the offsets reported to earlier leaders (v_reset) *)
Lemma elect_inv c nl e : Inv c -> In nl (c_isr c) -> In nl (c_synced c) -> (c_epoch c < e)%N ->
  Inv (mkCl (c_logs c) (c_hws c) nl e (c_isr c) (map (fun x => (x, if N.eqb x nl then newest_of c nl else -1)) (c_isr c)) [nl] (c_min_isr c) (c_committed c)).
Proof.
  intros [HA HB HC HD HL HK HV HG HH0 HH1 HH2] HNi HNs He.
  constructor; cbn [c_leader c_epoch c_isr c_synced]; try assumption.
  - intros x y Hin. apply N.lt_le_incl, (N.le_lt_trans _ _ _ (HA x y Hin) He).
  - intros x o y Hn Hy. pose proof (HA x y (nth_error_In _ _ Hn)) as Hle. rewrite Hy in Hle. destruct (N.lt_irrefl _ (N.lt_le_trans _ _ _ He Hle)).
  - intros x [<-|[]]. apply prefix_refl.
  - split; [left; reflexivity|exact HNi].
  - intros x. apply (chain_new_leader _ (log_of c (c_leader c))); [apply HK|apply HD; exact HNs].
  - intros x Hx. unfold view_of. cbn [c_view]. rewrite alookup_map_fun, (proj2 (mem_in _ _) Hx).
    destruct (N.eqb_spec x nl) as [->|Hne]; cbv iota; intros Hv; [|clear - Hv; lia].
    split; [left; reflexivity|]. change (newest_of c nl < Z.of_nat (length (log_of c nl))). unfold newest_of. clear. lia.
Qed.

Lemma guard_some {A} (b : bool) (x y : A) : (if b then Some x else None) = Some y -> b = true /\ x = y.
Proof. destruct b; [intros [= ->]; split; reflexivity|discriminate]. Qed.

Lemma step_inv_grows c x c' : Inv c -> step true c x = Some c' -> Inv c' /\ prefix (c_committed c) (c_committed c').
Proof.
  intros HI H. destruct x as [v|r n|r e|r|r|r]; cbn [step] in H; [injection H as <-|apply guard_some in H as [G <-]..].
  - apply (commit_inv_grows (published c v)), published_inv, HI.
  - apply andb_prop in G as [Hs Hne]. apply mem_in in Hs. apply negb_true_iff, N.eqb_neq in Hne.
    (* the leader records the reported offset and may commit; then the follower takes entries and the leader's HW *)
    set (c1 := if mem r (c_isr c) then commit (set_view c r (Z.max (view_of c r) (newest_of c r))) else c).
    assert (H1 : Inv c1 /\ prefix (c_committed c) (c_committed c1)).
    { unfold c1. destruct (mem r (c_isr c)) eqn:Hi; [apply (commit_inv_grows (set_view c r _)), report_inv, mem_in; assumption|split; [exact HI|apply prefix_refl]]. }
    assert (E : c_logs c1 = c_logs c /\ c_leader c1 = c_leader c /\ c_synced c1 = c_synced c).
    { unfold c1. destruct (mem r (c_isr c)); [apply (commit_frame (set_view c r _))|repeat split]. }
    destruct H1 as [HI1 Hg], E as (El & Eld & Es). split; [|exact Hg].
    assert (Hlog : forall x, log_of c x = log_of c1 x) by (intros x; unfold log_of; rewrite El; reflexivity).
    rewrite <- Eld, !Hlog. rewrite <- Es in Hs. rewrite <- Eld in Hne.
    pose proof (fetch_log_inv c1 r n HI1 Hs Hne) as HI2.
    apply (hw_inv _ r _ HI2 Hs); [pose proof (iH0 _ HI2 r) as H0; clear - H0; lia|pose proof (iH1 _ HI2 r) as H1; pose proof (iH1 _ HI2 (c_leader c1)) as H2; clear - H1 H2; lia].
  - apply andb_prop in G as [G He]. apply andb_prop in G as [G _]. apply andb_prop in G as [Hi Hs]. apply mem_in in Hi. apply mem_in in Hs. apply N.ltb_lt in He.
    split; [apply (elect_inv c r e HI Hi Hs He)|apply prefix_refl].
  - apply negb_true_iff in G. split; [|apply prefix_refl]. apply (reconcile_inv c r HI). intros Hin. apply mem_in in Hin. congruence.
  - apply andb_prop in G as [_ Hne]. apply negb_true_iff, N.eqb_neq in Hne. refine (commit_inv_grows (mkCl _ _ _ _ _ _ _ _ _) _). apply shrink_inv; assumption.
  - apply andb_prop in G as [G Hl]. apply andb_prop in G as [_ Hs]. apply mem_in in Hs. apply Nat.eqb_eq in Hl.
    (* a replica as long as the leader holds everything committed, as the leader does *)
    split; [|apply prefix_refl]. apply (expand_inv c r HI Hs). rewrite Hl. apply prefix_length, (iG c HI), HI.
Qed.

Theorem step_inv c x c' : Inv c -> step true c x = Some c' -> Inv c'.
Proof. intros HI H. apply (step_inv_grows c x c' HI H). Qed.

Lemma inv_init replicas L e m : In L replicas -> Inv (init_cluster replicas L e m).
Proof.
  intros HL. constructor; try (intros r; rewrite ?init_log, ?init_hw, ?init_view); cbn [init_cluster c_epoch c_leader c_synced c_isr c_committed].
  - intros x [].
  - intros i j e1 e2 _ H1. destruct i; discriminate.
  - intros o x H1. destruct o; discriminate.
  - intros _. apply prefix_refl.
  - split; exact HL.
  - apply chain_prefix, prefix_refl.
  - intros _ Hv. lia.
  - intros _. apply prefix_refl.
  - lia.
  - cbn. lia.
  - intros o x _ H1. destruct o; discriminate.
Qed.

Lemma run_inv_grows xs : forall c, Inv c -> Inv (run true c xs) /\ prefix (c_committed c) (c_committed (run true c xs)).
Proof.
  induction xs as [|x r IH]; intros c HI; cbn [run]; [split; [exact HI|apply prefix_refl]|]. destruct (step true c x) as [c'|] eqn:E; [|apply IH; exact HI].
  destruct (step_inv_grows c x c' HI E) as [HI' Hg]. destruct (IH c' HI') as [H1 H2]. split; [exact H1|apply (prefix_trans _ _ _ Hg H2)].
Qed.

Theorem run_inv xs : forall c, Inv c -> Inv (run true c xs).
Proof. intros c HI. apply (run_inv_grows xs c HI). Qed.

(* "Hold identical messages at every offset at or below both HWs", read strictly: the replicas
   that can be elected -- the in-sync ones and the leader -- hold a message at every offset at or
   below their own HW, and it is the committed one. *)
Theorem electable_hold_everything_below_hw c r o : Inv c -> In r (c_isr c) \/ r = c_leader c -> Z.of_nat o <= hw_of c r ->
  exists e, nth_error (log_of c r) o = Some e /\ nth_error (c_committed c) o = Some e.
Proof.
  intros HI Hr Ho. assert (Hp : prefix (c_committed c) (log_of c r)) by (apply (iG c HI); destruct Hr as [Hr| ->]; [exact Hr|apply HI]).
  pose proof (iH1 c HI r) as Hh. destruct (nth_error (c_committed c) o) as [e|] eqn:E; [|apply nth_error_None in E; clear - Ho Hh E; lia].
  exists e. split; [apply (prefix_nth _ _ _ _ Hp E)|reflexivity].
Qed.
