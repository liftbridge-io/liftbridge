(* The two steps of Repl.Fallback: under which conditions each keeps the invariant of
   Repl.ClusterProofs, and that histories in which every such step meets its condition keep it. *)
From LB Require Import Base.Prelude Meta.Fsm Meta.FsmProofs Repl.Cluster Repl.ClusterProofs Repl.Fallback.
Open Scope Z_scope.

Theorem fallback_inv c r : Inv c -> ~ In r (c_synced c) ->
  (~ In r (c_isr c) \/ hw_of c r + 1 = Z.of_nat (length (c_committed c))) -> Inv (fallback c r).
Proof.
  intros HI Hns Hsafe. pose proof (iL c HI) as [HL1 HL2].
  set (l := firstn (Z.to_nat (hw_of c r + 1)) (log_of c r)).
  (* what is left of r's log is a prefix of what was committed, hence of the leader's log *)
  assert (Hlc : prefix l (c_committed c)).
  { apply nth_agree_prefix. intros o e Ho. destruct (nth_error_firstn_some _ _ _ _ Ho) as [Hlt Hn]. apply (iH2 c HI r o e); [clear - Hlt; lia|exact Hn]. }
  apply (follower_log_inv c r l (r :: c_synced c)); [exact HI|congruence|apply (prefix_trans _ _ _ Hlc), (iG c HI _ HL2)| |apply incl_tl, incl_refl|apply incl_refl].
  intros Hx. destruct Hsafe as [Hout|Hup]; [contradiction|]. split.
  - (* r is in sync and its HW is up to date: it holds all of the committed prefix, and keeps it *)
    destruct (iG c HI r Hx) as [t Ht]. unfold l. rewrite Ht. replace (Z.to_nat (hw_of c r + 1)) with (length (c_committed c)) by (clear - Hup; lia).
    rewrite firstn_app_exact. apply prefix_refl.
  - intros Hv. destruct (iV c HI r Hx Hv). contradiction.
Qed.

Definition step_guard (c : cluster) (x : fstep) : Prop :=
  match x with
  | FBase _ => True
  | FFallback r => ~ In r (c_isr c) \/ hw_of c r + 1 = Z.of_nat (length (c_committed c))
  | FExpandBehind r => (length (c_committed c) <= length (log_of c r))%nat
  end.

Fixpoint guarded (c : cluster) (xs : list fstep) : Prop :=
  match xs with
  | [] => True
  | x :: r => match fstep_apply c x with
              | Some c' => step_guard c x /\ guarded c' r
              | None => guarded c r
              end
  end.

Theorem fstep_inv_grows c x c' : Inv c -> step_guard c x -> fstep_apply c x = Some c' -> Inv c' /\ prefix (c_committed c) (c_committed c').
Proof.
  intros HI Hg H. destruct x as [x|r|r]; cbn [fstep_apply step_guard] in *.
  - apply (step_inv_grows c x c' HI H).
  - apply guard_some in H as [G <-]. split; [|apply prefix_refl].
    apply fallback_inv; [exact HI| |exact Hg]. intros Hin. apply mem_in in Hin. rewrite Hin in G. discriminate G.
  - apply guard_some in H as [G <-]. apply andb_prop in G as [_ Em]. split; [|apply prefix_refl].
    apply (expand_inv c r HI); [apply mem_in; exact Em|exact Hg].
Qed.

Theorem guarded_histories_grow xs : forall c, Inv c -> guarded c xs -> Inv (frun c xs) /\ prefix (c_committed c) (c_committed (frun c xs)).
Proof.
  induction xs as [|x r IH]; intros c HI Hg; cbn [frun guarded] in *; [split; [exact HI|apply prefix_refl]|].
  destruct (fstep_apply c x) as [c'|] eqn:E; [|apply IH; assumption].
  destruct Hg as [Hg1 Hg2]. destruct (fstep_inv_grows c x c' HI Hg1 E) as [HI' Hp]. destruct (IH c' HI' Hg2) as [H1 H2].
  split; [exact H1|apply (prefix_trans _ _ _ Hp H2)].
Qed.
