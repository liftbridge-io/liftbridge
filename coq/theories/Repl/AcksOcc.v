(* C16 at the partition leader and at the API: on a stream with optimistic concurrency control
   every message is a batch of its own (store_each); it is stored iff its expected offset is -1 or
   the next offset, its publisher is told otherwise, and of publishers racing with one expected
   offset at most one is stored.  The API refuses the NONE policy on such streams: a publisher who
   asked for no acknowledgement could not be told. *)
From LB Require Import Base.Prelude Repl.Acks Repl.AcksProofs.
Open Scope Z_scope.

Definition accepted (s : lstate) (m : pmsg) : bool := (pm_expected m =? -1) || (pm_expected m =? newest s + 1).

Lemma accepted_spec s m : accepted s m = true <-> pm_expected m = -1 \/ pm_expected m = Z.of_nat (length (l_log s)).
Proof. unfold accepted, newest. lia. Qed.

Lemma store_batch_cc s m : l_cc s = true ->
  store_batch s [m] = if accepted s m then store_ok s [m] else (s, [mkAck (pm_corr m) (pm_policy m) 0 AIncorrectOffset]).
Proof. intros Hcc. unfold store_batch, accepted. rewrite Hcc. destruct (pm_expected m =? -1), (pm_expected m =? newest s + 1); reflexivity. Qed.

Lemma store_one s m s' out : l_cc s = true -> QInv s -> store_batch s [m] = (s', out) ->
  l_cc s' = true /\
  (accepted s m = true -> l_log s' = l_log s ++ [m] /\ forall a, In a out -> ak_kind a = AOk) /\
  (accepted s m = false -> s' = s /\ out = [mkAck (pm_corr m) (pm_policy m) 0 AIncorrectOffset]).
Proof.
  intros Hcc HQ H. rewrite (store_batch_cc s m Hcc) in H. destruct (accepted s m).
  - destruct (store_ok_sound s [m]) as (Hl & [(_ & _ & Hc & _) _] & Hk). rewrite H in Hl, Hc, Hk. cbn [fst snd] in *.
    split; [rewrite Hc; exact Hcc|]. split; [|discriminate]. intros _. split; [exact Hl|exact (Hk HQ)].
  - injection H as <- <-. split; [exact Hcc|]. split; [discriminate|]. intros _. split; reflexivity.
Qed.

(* the log end moves with every stored message, so the induction carries the offset along *)
Theorem stored_at_expected ms : forall s, l_cc s = true ->
  exists st, l_log (fst (store_each s ms)) = l_log s ++ st /\
    (forall i m, nth_error st i = Some m -> In m ms /\ (pm_expected m = -1 \/ pm_expected m = Z.of_nat (length (l_log s) + i))) /\
    (forall m, In m ms -> In m st \/ In (mkAck (pm_corr m) (pm_policy m) 0 AIncorrectOffset) (snd (store_each s ms))).
Proof.
  induction ms as [|m r IH]; intros s Hcc.
  - exists []. rewrite app_nil_r. split; [reflexivity|]. split; [intros [|i] ? [=]|intros ? []].
  - rewrite store_each_cons, (store_batch_cc s m Hcc). destruct (accepted s m) eqn:Ea; cbn [fst snd].
    + destruct (store_ok_sound s [m]) as (Hl & [(_ & _ & Hc & _) _] & _). destruct (IH (fst (store_ok s [m]))) as (st & Hst & Hexp & Htold); [rewrite Hc; exact Hcc|].
      exists (m :: st). split; [rewrite Hst, Hl, <- app_assoc; reflexivity|]. split.
      * intros [|i] x Hx; cbn [nth_error] in Hx.
        -- injection Hx as <-. split; [left; reflexivity|]. rewrite Nat.add_0_r. apply accepted_spec. exact Ea.
        -- destruct (Hexp i x Hx) as [H1 H2]. split; [right; exact H1|]. rewrite Hl, app_length, <- Nat.add_assoc in H2. exact H2.
      * intros x [<-|Hx]; [left; left; reflexivity|]. destruct (Htold x Hx) as [H|H]; [left; right; exact H|right; apply in_or_app; right; exact H].
    + destruct (IH s Hcc) as (st & Hst & Hexp & Htold). exists st. split; [exact Hst|]. split.
      * intros i x Hx. destruct (Hexp i x Hx). split; [right|]; assumption.
      * intros x [<-|Hx]; [right; left; reflexivity|]. destruct (Htold x Hx) as [H|H]; [left; exact H|right; right; exact H].
Qed.

(* two stored messages with one expected offset (not -1) would sit at the same offset *)
Theorem racers_at_most_one ms s e s' out : l_cc s = true -> e <> -1 ->
  (forall m, In m ms -> pm_expected m = e) -> store_each s ms = (s', out) ->
  (length (l_log s') <= length (l_log s) + 1)%nat.
Proof.
  intros Hcc He Hall H. destruct (stored_at_expected ms s Hcc) as (st & Hst & Hexp & _). rewrite H in Hst. cbn [fst] in Hst.
  assert (P : forall i x, nth_error st i = Some x -> e = Z.of_nat (length (l_log s) + i)).
  { intros i x Hx. destruct (Hexp i x Hx) as [Hi [E|E]]; rewrite (Hall x Hi) in E; [contradiction|exact E]. }
  rewrite Hst, app_length. apply Nat.add_le_mono_l. destruct st as [|x [|y t]]; [apply Nat.le_0_l|apply Nat.le_refl|]. exfalso.
  pose proof (P 0%nat x eq_refl) as E0. pose proof (P 1%nat y eq_refl) as E1. clear - E0 E1. lia.
Qed.

Theorem api_none_refused s ms s' out : l_cc s = true -> step s (LApi ms) = (s', out) ->
  (forall m, In m ms -> pm_policy m = PNone -> In (mkAck (pm_corr m) PNone 0 ARefused) out) /\
  exists st, l_log s' = l_log s ++ st /\ forall m, In m st -> In m ms /\ pm_policy m <> PNone.
Proof.
  intros Hcc H. split.
  - cbn [step] in H. destruct (publish_step s _) as [s1 o1]. injection H as _ <-.
    intros m Hin Hp. apply in_or_app. left. apply in_map_iff. exists m. split; [rewrite Hp; reflexivity|]. apply filter_In. split; [exact Hin|].
    unfold api_refuses. rewrite Hcc, Hp. reflexivity.
  - destruct (api_step_sound s ms) as [[(st & Hst & Hin) _] _]. rewrite H in Hst. exists st. split; [exact Hst|]. intros m Hm.
    apply Hin, filter_In in Hm. destruct Hm as [H1 H2]. split; [exact H1|].
    unfold api_refuses in H2. rewrite Hcc in H2. intros Hp. rewrite Hp in H2. discriminate.
Qed.

Theorem api_every_publisher_served_or_told s ms s' out : l_cc s = true -> step s (LApi ms) = (s', out) ->
  exists st, l_log s' = l_log s ++ st /\
  forall m, In m ms -> In m st \/ exists a, In a out /\ ak_corr a = pm_corr m /\ ak_kind a <> AOk.
Proof.
  intros Hcc H. cbn [step] in H. set (pass := filter (fun m => negb (api_refuses s m)) ms) in *.
  destruct (publish_step s pass) as [s1 o1] eqn:Ep. injection H as <- <-.
  pose proof (fun m => refused_messages_are_nacked s pass s1 o1 m Ep) as Hnack.
  assert (Told : forall m k, k <> AOk -> In (mkAck (pm_corr m) (pm_policy m) 0 k) o1 ->
    exists a, In a (map (fun m => mkAck (pm_corr m) (pm_policy m) 0 ARefused) (filter (api_refuses s) ms) ++ o1) /\ ak_corr a = pm_corr m /\ ak_kind a <> AOk).
  { intros m k Hk Hi. exists (mkAck (pm_corr m) (pm_policy m) 0 k). split; [apply in_or_app; right; exact Hi|split; [reflexivity|exact Hk]]. }
  pose proof (publish_step_eq s pass) as Eq. unfold store_all in Eq. rewrite Ep, Hcc in Eq. injection Eq as Es Eo.
  destruct (stored_at_expected (good pass) s Hcc) as (st & Hst & _ & Htold). exists st. split; [rewrite Es; exact Hst|]. intros m Hin.
  destruct (api_refuses s m) eqn:Er.
  { right. exists (mkAck (pm_corr m) (pm_policy m) 0 ARefused). split; [|split; [reflexivity|discriminate]].
    apply in_or_app. left. apply in_map_iff. exists m. split; [reflexivity|apply filter_In; split; assumption]. }
  assert (Hp : In m pass) by (apply filter_In; split; [exact Hin|rewrite Er; reflexivity]).
  destruct (Hnack m Hp) as [N1 N2].
  destruct (pm_seal_fails m) eqn:Esl; [right; apply (Told m AEncryption); [discriminate|apply N1; reflexivity]|].
  destruct (pm_too_large m) eqn:El; [right; apply (Told m ATooLarge); [discriminate|apply N2; reflexivity]|].
  destruct (Htold m) as [Hi|Hi]; [apply In_good; auto|left; exact Hi|]. right. apply (Told m AIncorrectOffset); [discriminate|].
  rewrite Eo. apply in_or_app. right. apply in_or_app. right. exact Hi.
Qed.
