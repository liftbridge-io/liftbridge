(* C04: every level of commit -> store_ok -> store_batch -> store_each -> publish_step is `sound`: it moves the state
   along `extends` (no invariant needed) and, when the commit queue names stored messages, keeps that so and sends only
   acknowledgements that mean their policy.  `sound` is closed under doing one level after another (sound_seq) and
   under answering some messages negatively (sound_nacks); the levels are built from these two. *)
From LB Require Import Base.Prelude Repl.Acks.
Open Scope Z_scope.

Lemma grows_refl {A} (l : list A) : exists st, l = l ++ st.
Proof. exists []. rewrite app_nil_r. reflexivity. Qed.

Lemma min_offset_le isr r o : In (r, o) isr -> min_offset isr <= o.
Proof.
  destruct isr as [|[r0 o0] t]; [intros []|]. cbn [min_offset]. destruct (fold_min_le snd t o0) as [H1 H2].
  intros [[= -> ->]|Hin]; [exact H1|apply (H2 (r, o) Hin)].
Qed.

Lemma set_offset_length r o isr : length (set_offset r o isr) = length isr.
Proof. induction isr as [|[r0 o0] t IH]; [reflexivity|]. cbn [set_offset]. destruct (N.eqb r0 r); cbn [length]; [|rewrite IH]; reflexivity. Qed.

Lemma set_offset_in r0 o0 isr r o : In (r, o) (set_offset r0 o0 isr) ->
  In (r, o) isr \/ (r = r0 /\ exists o', In (r, o') isr /\ o = Z.max o' o0).
Proof.
  induction isr as [|[r1 o1] t IH]; [intros []|]. cbn [set_offset]. destruct (N.eqb_spec r1 r0) as [->|Hne].
  - intros [[= <- <-]|H]; [right; split; [reflexivity|exists o1; split; [left; reflexivity|reflexivity]]|left; right; exact H].
  - intros [[= <- <-]|H]; [left; left; reflexivity|]. destruct (IH H) as [H1|(H1 & o' & H2 & H3)]; [left; right; exact H1|].
    right. split; [exact H1|exists o'; split; [right; exact H2|exact H3]].
Qed.

(* what a level of the publish path may do to the state when it is handed the messages ms (replica 0 is the leader) *)
Definition extends (ms : list pmsg) (s s' : lstate) : Prop :=
  (exists st, l_log s' = l_log s ++ st /\ incl st ms) /\ l_min_isr s' = l_min_isr s /\ l_cc s' = l_cc s /\ length (l_isr s') = length (l_isr s) /\
  (forall r o, In (r, o) (l_isr s') -> exists o', In (r, o') (l_isr s) /\ o' <= o /\ (r <> 0%N -> o' = o)) /\ l_hw s <= l_hw s'.

Lemma extends_hw ms s s' : l_log s' = l_log s -> l_min_isr s' = l_min_isr s -> l_cc s' = l_cc s -> l_isr s' = l_isr s -> l_hw s <= l_hw s' -> extends ms s s'.
Proof.
  intros L M C I H. unfold extends. rewrite L, M, C, I. split; [exists []; rewrite app_nil_r; split; [reflexivity|apply incl_nil_l]|].
  split; [reflexivity|]. split; [reflexivity|]. split; [reflexivity|]. split; [|exact H].
  intros r o Hin. exists o. split; [exact Hin|split; [apply Z.le_refl|reflexivity]].
Qed.

Lemma extends_refl ms s : extends ms s s.
Proof. apply extends_hw; reflexivity. Qed.

Lemma extends_trans ms s1 s2 s3 : extends ms s1 s2 -> extends ms s2 s3 -> extends ms s1 s3.
Proof.
  intros ((st1 & L1 & J1) & M1 & C1 & N1 & I1 & H1) ((st2 & L2 & J2) & M2 & C2 & N2 & I2 & H2).
  split; [exists (st1 ++ st2); split; [rewrite L2, L1, app_assoc; reflexivity|apply incl_app; assumption]|].
  split; [rewrite M2; exact M1|]. split; [rewrite C2; exact C1|]. split; [rewrite N2; exact N1|].
  split; [|exact (Z.le_trans _ _ _ H1 H2)].
  intros r o Hin. destruct (I2 r o Hin) as (o1 & Hin1 & Hle1 & E1). destruct (I1 r o1 Hin1) as (o0 & Hin0 & Hle0 & E0).
  exists o0. split; [exact Hin0|]. split; [exact (Z.le_trans _ _ _ Hle0 Hle1)|]. intros Hr. rewrite (E0 Hr). apply (E1 Hr).
Qed.

Lemma extends_incl ms ms' s s' : incl ms ms' -> extends ms s s' -> extends ms' s s'.
Proof. intros J ((st & L & K) & R). split; [exists st; split; [exact L|exact (incl_tran K J)]|exact R]. Qed.

Lemma extends_grows ms s s' : extends ms s s' -> exists st, l_log s' = l_log s ++ st.
Proof. intros ((st & L & _) & _). exists st. exact L. Qed.

Lemma commit_log s : l_log (fst (commit s)) = l_log s.
Proof. unfold commit. destruct (Nat.ltb _ _); reflexivity. Qed.

Lemma commit_extends ms s : extends ms s (fst (commit s)).
Proof. unfold commit. destruct (Nat.ltb _ _); [apply extends_refl|]. apply extends_hw; try reflexivity. apply Z.le_max_l. Qed.

Definition names_stored (log : list pmsg) (a : ack) : Prop :=
  0 <= ak_offset a /\ exists m, nth_error log (Z.to_nat (ak_offset a)) = Some m /\ pm_corr m = ak_corr a /\ pm_policy m = ak_policy a.

Definition QInv (s : lstate) : Prop := forall a, In a (l_queue s) -> ak_kind a = AOk /\ names_stored (l_log s) a.

Lemma names_stored_grow log l a : names_stored log a -> names_stored (log ++ l) a.
Proof.
  intros (H0 & m & Hn & Hc & Hp). split; [exact H0|]. exists m. split; [|split; assumption].
  rewrite nth_error_app1; [exact Hn|]. apply nth_error_Some. congruence.
Qed.

Definition stored_now (s s' : lstate) (a : ack) : Prop :=
  names_stored (l_log s') a /\ Z.of_nat (length (l_log s)) <= ak_offset a.

Definition ack_meaning (s s' : lstate) (a : ack) : Prop :=
  match ak_kind a with
  | AOk =>
    match ak_policy a with
    | PLeader => stored_now s s' a
    | PAll => names_stored (l_log s') a /\ (l_min_isr s' <= length (l_isr s'))%nat /\ (forall r o, In (r, o) (l_isr s') -> ak_offset a <= o) /\ ak_offset a <= l_hw s'
    | PNone => False
    end
  | _ => True
  end.

Lemma ack_meaning_mono ms s0 s1 s2 s3 a : extends ms s0 s1 -> ack_meaning s1 s2 a -> extends ms s2 s3 -> ack_meaning s0 s3 a.
Proof.
  intros ((st0 & L0 & _) & _) H ((st & L & _) & Hm & _ & Hlen & Hisr & Hhw). unfold ack_meaning, stored_now in *.
  destruct (ak_kind a); [|exact I..]. destruct (ak_policy a); [| |exact H].
  - destruct H as [H1 H2]. split; [rewrite L; apply names_stored_grow; exact H1|]. clear - L0 H2. rewrite L0, app_length in H2. lia.
  - destruct H as (H1 & H2 & H3 & H4). split; [rewrite L; apply names_stored_grow; exact H1|]. split; [rewrite Hm, Hlen; exact H2|].
    split; [|exact (Z.le_trans _ _ _ H4 Hhw)]. intros r o Hin. destruct (Hisr r o Hin) as (o' & Hin' & Hle & _). exact (Z.le_trans _ _ _ (H3 r o' Hin') Hle).
Qed.

Lemma commit_acks_ok s : QInv s -> forall a, In a (snd (commit s)) -> ak_kind a = AOk.
Proof.
  intros HQ a. unfold commit. destruct (Nat.ltb _ _); cbn [snd]; [intros []|]. intros Ha. apply filter_In, proj1, filter_In, proj1 in Ha. apply (HQ a Ha).
Qed.

(* the ALL row of ack_meaning does not mention the state the step began in *)
Lemma commit_acks s0 s : QInv s -> QInv (fst (commit s)) /\ forall a, In a (snd (commit s)) -> ack_meaning s0 (fst (commit s)) a.
Proof.
  intros HQ. unfold commit. destruct (Nat.ltb_spec (length (l_isr s)) (l_min_isr s)) as [Hlt|Hge]; cbn [fst snd]; [split; [exact HQ|intros a []]|]. split.
  - intros a Ha. apply filter_In in Ha. apply (HQ a (proj1 Ha)).
  - intros a Ha. apply filter_In in Ha. destruct Ha as [Ha Hp]. apply filter_In in Ha. destruct Ha as [Hq Hle]. apply Z.leb_le in Hle. destruct (HQ a Hq) as [Hk Hn].
    unfold ack_meaning. rewrite Hk. destruct (ak_policy a); try discriminate. cbn [l_log l_isr l_min_isr l_hw].
    split; [exact Hn|]. split; [exact Hge|]. split; [|exact (Z.le_trans _ _ _ Hle (Z.le_max_r _ _))].
    intros r o Hin. exact (Z.le_trans _ _ _ Hle (min_offset_le _ _ _ Hin)).
Qed.

Definition sound (ms : list pmsg) (s : lstate) (r : lstate * list ack) : Prop :=
  extends ms s (fst r) /\ (QInv s -> QInv (fst r) /\ forall a, In a (snd r) -> ack_meaning s (fst r) a).

Lemma sound_refl ms s : sound ms s (s, []).
Proof. split; [apply extends_refl|]. intros HQ. split; [exact HQ|intros a []]. Qed.

Lemma sound_incl ms ms' s r : incl ms ms' -> sound ms s r -> sound ms' s r.
Proof. intros J [E K]. split; [exact (extends_incl ms ms' _ _ J E)|exact K]. Qed.

(* one level after another: what the first acknowledged keeps its meaning because the second extends, what the second
   acknowledged because the first did *)
Lemma sound_seq ms s s1 o1 s2 o2 : sound ms s (s1, o1) -> sound ms s1 (s2, o2) -> sound ms s (s2, o1 ++ o2).
Proof.
  intros [E1 K1] [E2 K2]. cbn [fst snd] in *. split; [exact (extends_trans ms s s1 s2 E1 E2)|]. intros HQ.
  destruct (K1 HQ) as [Q1 M1]. destruct (K2 Q1) as [Q2 M2]. split; [exact Q2|]. intros a Ha. apply in_app_or in Ha. destruct Ha as [Ha|Ha].
  - exact (ack_meaning_mono ms s s s1 s2 a (extends_refl ms s) (M1 a Ha) E2).
  - exact (ack_meaning_mono ms s s1 s2 s2 a E1 (M2 a Ha) (extends_refl ms s2)).
Qed.

Lemma sound_nacks ms s k (l : list pmsg) s' out : k <> AOk -> sound ms s (s', out) ->
  sound ms s (s', map (fun m => mkAck (pm_corr m) (pm_policy m) 0 k) l ++ out).
Proof.
  intros Hk [E K]. split; [exact E|]. intros HQ. destruct (K HQ) as [K1 K2]. split; [exact K1|]. cbn [fst snd] in *.
  intros a Ha. apply in_app_or in Ha. destruct Ha as [Ha|Ha]; [|exact (K2 a Ha)].
  apply in_map_iff in Ha. destruct Ha as (m & <- & _). unfold ack_meaning. cbn [ak_kind]. destruct k; [contradiction|exact I..].
Qed.

Lemma commit_sound ms s : sound ms s (commit s).
Proof. split; [apply commit_extends|apply commit_acks]. Qed.

Lemma in_combine_seq {A} (ms : list A) k i m : In (i, m) (combine (seq k (length ms)) ms) -> (k <= i)%nat /\ nth_error ms (i - k) = Some m.
Proof.
  revert k. induction ms as [|y t IH]; intros k H; [destruct H|]. cbn [length seq combine] in H. destruct H as [[= <- <-]|H].
  - split; [lia|]. rewrite Nat.sub_diag. reflexivity.
  - destruct (IH (S k) H) as [H1 H2]. split; [lia|]. replace (i - k)%nat with (S (i - S k)) by lia. exact H2.
Qed.

Lemma batch_ack_stored log ms a :
  In a (map (fun im => mkAck (pm_corr (snd im)) (pm_policy (snd im)) (Z.of_nat (length log) + Z.of_nat (fst im)) AOk) (combine (seq 0 (length ms)) ms)) ->
  ak_kind a = AOk /\ names_stored (log ++ ms) a /\ Z.of_nat (length log) <= ak_offset a.
Proof.
  intros H. apply in_map_iff in H. destruct H as ([i m] & <- & Hin). cbn [fst snd ak_kind ak_offset ak_corr ak_policy].
  destruct (in_combine_seq ms 0 i m Hin) as [_ Hn]. rewrite Nat.sub_0_r in Hn.
  split; [reflexivity|]. split; [|lia]. unfold names_stored. cbn [ak_offset ak_corr ak_policy]. split; [lia|]. exists m. split; [|split; reflexivity].
  replace (Z.to_nat (Z.of_nat (length log) + Z.of_nat i)) with (length log + i)%nat by lia.
  rewrite nth_error_app2 by lia. replace (length log + i - length log)%nat with i by lia. exact Hn.
Qed.

(* store_ok is the append (the state s1 below, the only record term in its body) followed by the commit rule *)
Lemma store_ok_sound s ms :
  l_log (fst (store_ok s ms)) = l_log s ++ ms /\ sound ms s (store_ok s ms) /\ (QInv s -> forall a, In a (snd (store_ok s ms)) -> ak_kind a = AOk).
Proof.
  unfold store_ok. replace (newest s + 1) with (Z.of_nat (length (l_log s))) by (unfold newest; lia).
  set (acks := map _ (combine _ ms)). set (s1 := mkL _ _ _ _ _ _ _). set (lacks := filter _ acks).
  assert (A : sound ms s (s1, lacks)).
  { split; cbn [fst snd].
    - split; [exists ms; split; [reflexivity|apply incl_refl]|]. split; [reflexivity|]. split; [reflexivity|]. split; [apply set_offset_length|]. split.
      + intros r o Hin. destruct (set_offset_in _ _ _ _ _ Hin) as [H|(-> & o' & H & ->)].
        * exists o. split; [exact H|split; [apply Z.le_refl|reflexivity]].
        * exists o'. split; [exact H|split; [apply Z.le_max_l|intros Hr; contradiction]].
      + cbn [l_hw s1]. destruct (rf1 s && _); [apply Z.le_max_l|apply Z.le_refl].
    - intros HQ. split; intros a Ha.
      + cbn [l_queue l_log s1] in *. apply in_app_or in Ha. destruct Ha as [Ha|Ha].
        * destruct (HQ a Ha) as [H1 H2]. split; [exact H1|apply names_stored_grow; exact H2].
        * assert (Hin : In a acks) by (destruct (rf1 s); [apply filter_In in Ha; apply Ha|exact Ha]).
          destruct (batch_ack_stored _ _ _ Hin) as (H1 & H2 & _). split; assumption.
      + apply filter_In in Ha. destruct Ha as [Hin Hp]. destruct (batch_ack_stored _ _ _ Hin) as (H1 & H2 & H3).
        unfold ack_meaning. rewrite H1. destruct (ak_policy a); try discriminate. split; [exact H2|exact H3]. }
  pose proof (commit_log s1) as L. pose proof (commit_sound ms s1) as C. pose proof (commit_acks_ok s1) as P.
  destruct (commit s1) as [s2 cacks]. cbn [fst snd] in *. split; [exact L|]. split; [exact (sound_seq ms s s1 lacks s2 cacks A C)|].
  intros HQ a Ha. apply in_app_or in Ha. destruct Ha as [Ha|Ha]; [|exact (P (proj1 (proj2 A HQ)) a Ha)].
  apply filter_In in Ha. apply (batch_ack_stored _ _ _ (proj1 Ha)).
Qed.

Lemma store_batch_sound s ms : sound ms s (store_batch s ms).
Proof.
  unfold store_batch. destruct ms as [|first rest]; [apply sound_refl|]. destruct (l_cc s && _ && _); [|apply store_ok_sound].
  apply (sound_nacks _ s AIncorrectOffset [first] s []); [discriminate|apply sound_refl].
Qed.

Theorem refused_batch_not_stored s ms s' out a : QInv s -> store_batch s ms = (s', out) -> In a out -> ak_kind a = AIncorrectOffset -> l_log s' = l_log s.
Proof.
  intros HQ H Ha Hk. unfold store_batch in H. destruct ms as [|first rest]; [injection H as <- _; reflexivity|].
  destruct (l_cc s && _ && _); [injection H as <- _; reflexivity|].
  (* what store_ok answers is positive *)
  destruct (store_ok_sound s (first :: rest)) as (_ & _ & K). rewrite H in K. rewrite (K HQ a Ha) in Hk. discriminate.
Qed.

Lemma store_each_cons s m r :
  store_each s (m :: r) = (fst (store_each (fst (store_batch s [m])) r), snd (store_batch s [m]) ++ snd (store_each (fst (store_batch s [m])) r)).
Proof. cbn [store_each]. destruct (store_batch s [m]) as [s1 a1]. cbn [fst snd]. destruct (store_each s1 r). reflexivity. Qed.

Lemma store_each_sound ms : forall s, sound ms s (store_each s ms).
Proof.
  induction ms as [|m r IH]; intros s; [apply sound_refl|]. cbn [store_each].
  pose proof (store_batch_sound s [m]) as S1. destruct (store_batch s [m]) as [s1 a1]. pose proof (IH s1) as S2. destruct (store_each s1 r) as [s2 a2].
  apply (sound_seq (m :: r) s s1 a1 s2 a2).
  - apply (sound_incl [m]); [|exact S1]. apply incl_cons; [left; reflexivity|apply incl_nil_l].
  - apply (sound_incl r); [|exact S2]. apply incl_tl, incl_refl.
Qed.

Definition good (ms : list pmsg) : list pmsg := filter (fun m => negb (pm_too_large m)) (filter (fun m => negb (pm_seal_fails m)) ms).

Lemma In_good m ms : In m (good ms) <-> In m ms /\ pm_seal_fails m = false /\ pm_too_large m = false.
Proof. unfold good. rewrite !filter_In, !negb_true_iff. tauto. Qed.

Definition store_all (s : lstate) (ms : list pmsg) : lstate * list ack := if l_cc s then store_each s ms else store_batch s ms.

Lemma store_all_sound s ms : sound ms s (store_all s ms).
Proof. unfold store_all. destruct (l_cc s); [apply store_each_sound|apply store_batch_sound]. Qed.

Lemma publish_step_eq s ms : publish_step s ms =
  (fst (store_all s (good ms)),
   map (fun m => mkAck (pm_corr m) (pm_policy m) 0 AEncryption) (filter pm_seal_fails ms) ++
   map (fun m => mkAck (pm_corr m) (pm_policy m) 0 ATooLarge) (filter pm_too_large (filter (fun m => negb (pm_seal_fails m)) ms)) ++
   snd (store_all s (good ms))).
Proof. unfold publish_step. fold (good ms). fold (store_all s (good ms)). destruct (store_all s (good ms)). reflexivity. Qed.

Lemma publish_step_sound s ms : sound (good ms) s (publish_step s ms).
Proof.
  rewrite publish_step_eq. pose proof (store_all_sound s (good ms)) as S. destruct (store_all s (good ms)) as [s1 acks]. cbn [fst snd].
  apply sound_nacks; [discriminate|]. apply sound_nacks; [discriminate|exact S].
Qed.

Lemma api_step_sound s ms : sound (filter (fun m => negb (api_refuses s m)) ms) s (step s (LApi ms)).
Proof.
  cbn [step]. pose proof (publish_step_sound s (filter (fun m => negb (api_refuses s m)) ms)) as S. destruct (publish_step s _) as [s1 o1].
  apply sound_nacks; [discriminate|]. refine (sound_incl _ _ s _ _ S). intros m Hm. apply In_good in Hm. apply Hm.
Qed.

Theorem step_stores_only_accepted s ms s' out : step s (LPublish ms) = (s', out) ->
  exists st, l_log s' = l_log s ++ st /\ forall m, In m st -> In m ms /\ pm_too_large m = false /\ pm_seal_fails m = false.
Proof.
  intros H. destruct (publish_step_sound s ms) as [[(st & L & J) _] _]. cbn [step] in H. rewrite H in L. exists st. split; [exact L|].
  intros m Hm. apply J, In_good in Hm. tauto.
Qed.

Theorem refused_messages_are_nacked s ms s' out m : step s (LPublish ms) = (s', out) -> In m ms ->
  (pm_seal_fails m = true -> In (mkAck (pm_corr m) (pm_policy m) 0 AEncryption) out) /\
  (pm_seal_fails m = false -> pm_too_large m = true -> In (mkAck (pm_corr m) (pm_policy m) 0 ATooLarge) out).
Proof.
  intros H Hin. cbn [step] in H. rewrite publish_step_eq in H. injection H as _ <-. split.
  - intros Hs. apply in_or_app. left. apply in_map_iff. exists m. split; [reflexivity|]. apply filter_In. split; assumption.
  - intros Hs Hl. apply in_or_app. right. apply in_or_app. left. apply in_map_iff. exists m. split; [reflexivity|].
    apply filter_In. split; [apply filter_In; split; [exact Hin|rewrite Hs; reflexivity]|exact Hl].
Qed.

Definition is_regain (x : lstep) : bool := match x with LRegain _ _ _ => true | _ => false end.

Lemma step_log_grows s x : is_regain x = false -> exists st, l_log (fst (step s x)) = l_log s ++ st.
Proof.
  intros Hx. destruct x as [ms|r o|r|r|keep foreign hw|ms]; cbn [step].
  - apply (extends_grows (good ms)), publish_step_sound.
  - destruct (existsb (N.eqb r) (l_replicas s) && negb (N.eqb r 0)); [rewrite commit_log|]; apply grows_refl.
  - rewrite commit_log. apply grows_refl.
  - destruct (existsb (N.eqb r) (map fst (l_isr s))); apply grows_refl.
  - discriminate.
  - apply (extends_grows _ _ _ (proj1 (api_step_sound s ms))).
Qed.

Theorem log_only_grows xs : forall s s' acks, forallb (fun x => negb (is_regain x)) xs = true ->
  run s xs = (s', acks) -> exists st, l_log s' = l_log s ++ st.
Proof.
  induction xs as [|x r IH]; intros s s' acks Hn H; cbn [run] in H; [injection H as <- <-; apply grows_refl|].
  cbn [forallb] in Hn. apply andb_prop in Hn. destruct Hn as [Hx Hr]. apply negb_true_iff in Hx.
  destruct (step_log_grows s x Hx) as [st1 G]. destruct (step s x) as [s1 a1]. destruct (run s1 r) as [s2 a2] eqn:E2. injection H as <- <-.
  destruct (IH s1 s2 a2 Hr E2) as [st2 E]. exists (st1 ++ st2). cbn [fst] in G. rewrite E, G, app_assoc. reflexivity.
Qed.

Theorem step_acks s x s' out : QInv s -> step s x = (s', out) ->
  QInv s' /\ (is_regain x = false -> exists st, l_log s' = l_log s ++ st) /\ forall a, In a out -> ack_meaning s s' a.
Proof.
  intros HQ H. pose proof (step_log_grows s x) as G.
  assert (K : QInv (fst (step s x)) /\ forall a, In a (snd (step s x)) -> ack_meaning s (fst (step s x)) a).
  { (* a report and a shrink hand to commit a state that differs from s in the ISR only, which QInv does not read *)
    destruct x as [ms|r o|r|r|keep foreign hw|ms].
    - exact (proj2 (publish_step_sound s ms) HQ).
    - cbn [step]. destruct (existsb (N.eqb r) (l_replicas s) && negb (N.eqb r 0)); [apply (commit_acks s); exact HQ|split; [exact HQ|intros a []]].
    - apply (commit_acks s). exact HQ.
    - cbn [step]. destruct (existsb (N.eqb r) (map fst (l_isr s))); (split; [exact HQ|intros a []]).
    - split; [intros a []|intros a []].
    - exact (proj2 (api_step_sound s ms) HQ). }
  rewrite H in K, G. cbn [fst snd] in K, G. destruct K as [K1 K2]. split; [exact K1|split; [exact G|exact K2]].
Qed.

Fixpoint all_steps_ok (s : lstate) (xs : list lstep) : Prop :=
  match xs with
  | [] => True
  | x :: r => let '(s', out) := step s x in (forall a, In a out -> ack_meaning s s' a) /\ all_steps_ok s' r
  end.

Theorem every_ack_means_its_policy xs : forall s, QInv s -> all_steps_ok s xs.
Proof.
  induction xs as [|x r IH]; intros s HQ; cbn [all_steps_ok]; [exact I|]. destruct (step s x) as [s' out] eqn:E.
  destruct (step_acks s x s' out HQ E) as (HQ' & _ & Hm). split; [exact Hm|apply IH; exact HQ'].
Qed.
