(* C11 on the commit-log model: what GetCursor's reverse scan finds -- the newest committed
   record carrying the cursor key -- is the same record before and after a compaction of the
   cursors partition.  This is the fact the key/value model (Api.Cursors) calls keeps_latest. *)
From LB Require Import Base.Prelude Log.Model Log.Retention Log.Compact Log.Proofs Log.Refine Log.CompactProofs Api.RangeProofs.
Open Scope Z_scope.

Lemma find_ext' {A} (p q : A -> bool) l : (forall x, p x = q x) -> find p l = find q l.
Proof. intros H. induction l as [|a t IH]; [reflexivity|]. cbn [find]. rewrite H, IH. reflexivity. Qed.

Lemma find_filter_and {A} (p f : A -> bool) l : find p (filter f l) = find (fun x => f x && p x) l.
Proof.
  induction l as [|a t IH]; [reflexivity|]. cbn [filter find]. destruct (f a); cbn [andb find]; [destruct (p a)|]; auto.
Qed.

Lemma find_filter_first {A} (p f : A -> bool) l :
  (forall pre r post, l = pre ++ r :: post -> p r = true -> (forall x, In x pre -> p x = false) -> f r = true) ->
  find p (filter f l) = find p l.
Proof.
  induction l as [|a t IH]; intros H; [reflexivity|]. cbn [filter find]. destruct (p a) eqn:Ep.
  - rewrite (H [] a t eq_refl Ep) by (intros x []). cbn [find]. rewrite Ep. reflexivity.
  - assert (IH' : find p (filter f t) = find p t).
    { apply IH. intros pre r post E Hr Hpre. apply (H (a :: pre) r post); [rewrite E; reflexivity|exact Hr|].
      intros x [<-|Hx]; [exact Ep|apply Hpre; exact Hx]. }
    destruct (f a); [cbn [find]; rewrite Ep|]; exact IH'.
Qed.

Section Bridge.
  Variable key_of : bytes -> option bytes.

  Definition cmatch (hw : Z) (k : bytes) (r : rec) : bool :=
    (r_off r <=? hw) && has_key key_of r && bytes_eqb (kstr key_of r) k.

  Definition scan_log (hw : Z) (k : bytes) (recs : list rec) : option rec := find (cmatch hw k) (rev recs).

  Theorem scan_after_compaction hw k lo older last : 0 <= lo -> segs_wf lo (older ++ [last]) ->
    scan_log hw k (flat (compact_segs key_of false hw (older ++ [last]))) = scan_log hw k (flat (older ++ [last])).
  Proof.
    intros Hlo Hw. unfold scan_log. rewrite (compact_content key_of false hw lo) by assumption.
    set (all := flat (older ++ [last])). rewrite <- filter_rev.
    (* the scan's answer r, the newer records pre it passed over, the older ones post *)
    apply find_filter_first. intros pre r post E Hr Hpre.
    assert (Eall : all = rev post ++ r :: rev pre).
    { rewrite <- (rev_involutive all), E, rev_app_distr. cbn [rev]. rewrite <- app_assoc. reflexivity. }
    destruct (flat_sorted lo (older ++ [last]) Hlo Hw) as [Hs _]. fold all in Hs. rewrite Eall in Hs.
    assert (H0 : lo <= r_off r).
    { apply sorted_ge in Hs. rewrite Forall_forall in Hs. apply Hs, in_or_app. right. left. reflexivity. }
    assert (Hm : r_off r <= hw /\ has_key key_of r = true /\ bytes_eqb (kstr key_of r) k = true) by (clear - Hr; unfold cmatch in Hr; lia).
    destruct Hm as (Hh & Hkey & Hk). apply bytes_eqb_eq in Hk.
    unfold keep, retained. rewrite Hkey. cbn [negb orb].
    rewrite (latest_for_is_max key_of hw all r); [rewrite Z.eqb_refl; reflexivity| | | | |].
    - rewrite Eall. apply in_or_app. right. left. reflexivity.
    - exact Hkey.
    - exact Hh.
    - exact (Z.le_trans _ _ _ Hlo H0).
    - intros r' Hin Hk' Hks Hh'. rewrite Eall in Hin. apply in_app_or in Hin. destruct Hin as [Hin|[<-|Hin]].
      + apply Z.lt_le_incl, (sorted_app_lt _ _ _ r' r Hs Hin). left. reflexivity.
      + apply Z.le_refl.
      + (* newer than r: the scan would have stopped there *)
        exfalso. apply in_rev in Hin. specialize (Hpre r' Hin). unfold cmatch in Hpre.
        rewrite Hk', Hks, Hk, bytes_eqb_refl in Hpre. clear - Hpre Hh'. lia.
  Qed.

  Definition kmatch (k : bytes) (r : rec) : bool := has_key key_of r && bytes_eqb (kstr key_of r) k.

  (* getLatestCursorOffset: -1 without committed messages or on an emptied log, else the first
     message with the key in a committed reverse read from the latest offset *)
  Definition get_cursor_log (l : log) (k : bytes) : option (option rec) :=
    if (l_hw l =? -1) || (oldest l =? -1) then Some None
    else match read_reverse true l (-1) false (-1) with
         | Some rs => Some (find (kmatch k) rs)
         | None => None                      (* the subscription fails: an error, not an answer *)
         end.

  Theorem get_cursor_log_scan l k : wf l -> 0 <= l_hw l <= newest l -> oldest l <> -1 ->
    get_cursor_log l k = Some (scan_log (l_hw l) k (all_recs l)).
  Proof.
    intros Hw Hhw Hold. unfold get_cursor_log.
    destruct (Z.eqb_spec (l_hw l) (-1)); [lia|]. destruct (Z.eqb_spec (oldest l) (-1)); [contradiction|]. cbn [orb].
    pose proof (read_reverse_committed l (-1) Hw ltac:(lia)) as R. cbn zeta in R. rewrite orb_true_r in R.
    rewrite R by lia. f_equal. unfold scan_log. rewrite <- filter_rev, find_filter_and.
    apply find_ext'. intros r. unfold le_off, cmatch, kmatch. rewrite andb_assoc. reflexivity.
  Qed.
End Bridge.
