(* C19: each way of switching telemetry off wins in [resolve] once the environment variable is honoured, and
   a disabled collector never sends as long as the gate in server.go or the check in Collector.Start is there. *)
From Coq Require Import List String Bool.
From LB Require Import Base.Prelude Generated.Telemetry Api.Telemetry.
Import ListNotations.

Theorem disabling_routes_work c :
  c_prog c = Some false \/ (c_prog c = None /\ c_env c = Some false) \/
  (c_prog c = None /\ c_env c = None /\ c_file c = Some false) ->
  resolve true c = false.
Proof.
  unfold resolve. intros [H|[[H1 H2]|[H1 [H2 H3]]]].
  - rewrite H. reflexivity.
  - rewrite H1, H2. reflexivity.
  - rewrite H1, H2, H3. reflexivity.
Qed.

Lemma cstep_no_send gate check n st ev : gate || check = true ->
  running st = false /\ sends st = n ->
  running (cstep gate check false st ev) = false /\ sends (cstep gate check false st ev) = n.
Proof.
  intros Hg [Hr Hn]. destruct ev; cbn [cstep].
  - destruct gate, check; try discriminate Hg; (split; [reflexivity|exact Hn]).
  - rewrite Hr. split; assumption.
  - split; [reflexivity|exact Hn].
Qed.

Theorem disabled_never_sends gate check evs : gate || check = true ->
  sends (crun gate check false evs) = 0.
Proof.
  intros Hg. apply (fold_left_inv (cstep gate check false) (fun st => running st = false /\ sends st = 0)).
  - intros st ev. apply cstep_no_send. exact Hg.
  - split; reflexivity.
Qed.
