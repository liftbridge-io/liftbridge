(* C15: the flow summary [den] covers everything an execution by the unauthorised client can do
   (exec_covered, by mutual induction over exec and iter), so a handler that passes [guarded] returns an error
   without an effect. *)
From Coq Require Import List String Bool.
From LB Require Import Api.Authz.
Import ListNotations.

Definition allowed (f : flow) (o : outcome) : bool :=
  match o with Fell => ft f | Returned ok => negb ok | Cont => ct f | Brk => bk f end.

Definition covered (f : flow) (tr : list string) (o : outcome) : Prop :=
  bad f = false -> tr = [] /\ allowed f o = true.

(* an iteration result, seen as the outcome of the Loop step alone *)
Definition loop_outcome (r : option bool) : outcome :=
  match r with None => Fell | Some ok => Returned ok end.

Lemma seqf_bad d r : bad (seqf d r) = false -> bad d = false /\ (ft d = true -> bad r = false).
Proof.
  cbn [seqf bad]. intros H. apply orb_false_iff in H. destruct H as [Hd Hr].
  split; [exact Hd|]. intros Hf. rewrite Hf in Hr. exact Hr.
Qed.

Lemma seqf_stop d r o : o <> Fell -> allowed d o = true -> allowed (seqf d r) o = true.
Proof.
  destruct o; cbn [allowed seqf ct bk]; intros Hne H.
  - contradiction.
  - exact H.
  - rewrite H. reflexivity.
  - rewrite H. reflexivity.
Qed.

Lemma seqf_fall d r o : ft d = true -> allowed r o = true -> allowed (seqf d r) o = true.
Proof.
  intros Hf H. destruct o; cbn [allowed seqf ft ct bk] in *.
  - rewrite Hf. exact H.
  - exact H.
  - rewrite Hf, H. apply orb_true_r.
  - rewrite Hf, H. apply orb_true_r.
Qed.

Lemma joinf_allowed a b o : allowed a o = true \/ allowed b o = true -> allowed (joinf a b) o = true.
Proof.
  destruct o; cbn [allowed joinf ft ct bk].
  - apply orb_true_iff.
  - intros [H|H]; exact H.
  - apply orb_true_iff.
  - apply orb_true_iff.
Qed.

Lemma covered_stop d r tr o : o <> Fell -> covered d tr o -> covered (seqf d r) tr o.
Proof.
  intros Hne H Hb. apply seqf_bad in Hb. destruct Hb as [Hb _].
  destruct (H Hb) as [-> Ha]. split; [reflexivity|]. apply seqf_stop; assumption.
Qed.

Lemma covered_fall d r tr1 tr2 o : covered d tr1 Fell -> covered r tr2 o -> covered (seqf d r) (tr1 ++ tr2) o.
Proof.
  intros H1 H2 Hb. apply seqf_bad in Hb. destruct Hb as [Hb Hr].
  destruct (H1 Hb) as [-> Hf]. destruct (H2 (Hr Hf)) as [-> Ha]. split; [reflexivity|]. apply seqf_fall; assumption.
Qed.

Lemma covered_join a b tr o : covered a tr o \/ covered b tr o -> covered (joinf a b) tr o.
Proof.
  intros H Hb. apply orb_false_iff in Hb. destruct Hb as [Hba Hbb]. destruct H as [H|H].
  - destruct (H Hba) as [-> Ha]. split; [reflexivity|]. apply joinf_allowed. left. exact Ha.
  - destruct (H Hbb) as [-> Ha]. split; [reflexivity|]. apply joinf_allowed. right. exact Ha.
Qed.

Scheme exec_ind2 := Minimality for exec Sort Prop
  with iter_ind2 := Minimality for iter Sort Prop.
Combined Scheme exec_iter_ind from exec_ind2, iter_ind2.

(* [den (x :: r)] computes to [seqf (den1 x) (den r)], [den1 (Check deny)] to [den deny] and
   [den1 (Branch a b)] to [joinf (den a) (den b)]; [den1 (Loop fv body)] is bad exactly when
   [den body] is and falls through when [negb fv || bk (den body)]: the cases below use this
   by conversion. *)
Lemma exec_covered : (forall s tr o, exec s tr o -> covered (den s) tr o) /\
                     (forall fv b tr r, iter fv b tr r -> covered (den1 (Loop fv b)) tr (loop_outcome r)).
Proof.
  apply exec_iter_ind.
  - (* nil *) intros _. split; reflexivity.
  - (* check, deny terminates *) intros deny rest tr o _ IH Hne. apply covered_stop; [exact Hne|exact IH].
  - (* check, deny falls through *) intros deny rest tr1 tr2 o _ IH1 _ IH2. apply covered_fall; [exact IH1|exact IH2].
  - (* CheckNoBranch *) intros rest tr o _ IH. apply (covered_fall f_unit (den rest) [] tr o); [|exact IH].
    intros _. split; reflexivity.
  - (* effect *) intros n rest tr o _ _ Hb. discriminate Hb.
  - (* branch terminates *) intros l a b rest tr o _ IH Hne. apply covered_stop; [exact Hne|].
    apply covered_join. destruct l; [left|right]; exact IH.
  - (* branch falls through *) intros l a b rest tr1 tr2 o _ IH1 _ IH2. apply covered_fall; [|exact IH2].
    apply covered_join. destruct l; [left|right]; exact IH1.
  - (* loop left normally *) intros fv body rest tr1 tr2 o _ IH1 _ IH2. apply covered_fall; [exact IH1|exact IH2].
  - (* return inside the loop *) intros fv body rest tr ok _ IH. apply covered_stop; [discriminate|exact IH].
  - (* RetOk *) intros rest Hb. discriminate Hb.
  - (* RetErr *) intros rest _. split; reflexivity.
  - (* Continue *) intros rest _. split; reflexivity.
  - (* Break *) intros rest _. split; reflexivity.
  - (* iter done *) intros body _. split; reflexivity.
  - (* iter break *) intros fv body tr _ IH Hb. destruct (IH Hb) as [-> Hk]. split; [reflexivity|].
    change (negb fv || bk (den body) = true). apply orb_true_iff. right. exact Hk.
  - (* iter ret *) intros fv body tr ok _ IH. exact IH.
  - (* iter next *) intros fv body tr1 tr2 r o _ IH1 _ _ IH2 Hb. destruct (IH1 Hb) as [-> _]. exact (IH2 Hb).
Qed.

Theorem guarded_sound h tr o : guarded h = true -> exec h tr o -> tr = [] /\ o = Returned false.
Proof.
  unfold guarded. intros Hg Hex. pose proof (proj1 exec_covered _ _ _ Hex) as Hc.
  (* the only summary that passes is the one that admits nothing but an error return *)
  destruct (den h) as [[|] [|] [|] [|]]; try discriminate Hg.
  destruct (Hc eq_refl) as [-> Ha]. split; [reflexivity|]. destruct o as [|[|]| |]; reflexivity || discriminate Ha.
Qed.

(* the condition is not vacuous and not trivially false *)
Example guarded_example :
  guarded [Branch [RetErr] []; Check [RetErr]; Effect "x"; RetOk] = true /\
  guarded [Effect "x"; Check [RetErr]; RetOk] = false /\
  guarded [Loop false [Check []; Effect "x"]; RetOk] = false /\
  guarded [Loop true [Branch [RetErr] []; Check [Continue]; Effect "x"]; RetOk] = true /\
  guarded [Loop false [Check [Continue]; Effect "x"]; RetErr] = true /\
  guarded [Branch [RetErr] []; Effect "x"; RetOk] = false.
Proof. vm_compute. repeat split. Qed.

(* the unguarded shapes really do misbehave: an execution with an effect, or a success *)
Example unguarded_misbehaves :
  exec [Effect "subscribe"; Check [RetErr]; RetOk] ["subscribe"%string] (Returned false) /\
  exec [Loop false [Check []; Effect "publish"]; RetOk] ["publish"%string] (Returned true).
Proof.
  split.
  - apply ex_effect. apply ex_check_stop; [apply ex_reterr|discriminate].
  - change ["publish"%string] with ((["publish"%string] ++ []) ++ []). apply ex_loop_exit; [|apply ex_retok].
    eapply it_next; [|left; reflexivity|apply it_done].
    change ["publish"%string] with ([] ++ ["publish"%string]). apply ex_check_fall; [apply ex_nil|].
    apply ex_effect. apply ex_nil.
Qed.
