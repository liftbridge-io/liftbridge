(* C11: the cache only ever holds what a scan of the log would find (coherent), so a fetch returns the offset
   of the last successful SetCursor, across evictions, purges and compactions that keep the latest message of
   each key. The same with a fetch split into scan and fill under the lock (ainv): no SetCursor runs while a
   scan result is pending, so it is still the latest when it is cached. *)
From LB Require Import Base.Prelude Api.Cursors.
Open Scope Z_scope.

Definition legal (s : cstate) (o : cop) : Prop := forall keep, o = CCompact keep -> keeps_latest keep (c_log s).

Lemma latest_snoc k k' v log : latest k (log ++ [(k', v)]) = if N.eqb k' k then v else latest k log.
Proof. unfold latest. rewrite rev_app_distr. reflexivity. Qed.

Lemma cache_get_filter k k' c :
  cache_get k (filter (fun e => negb (N.eqb (fst e) k')) c) = if N.eqb k' k then None else cache_get k c.
Proof.
  induction c as [|[a b] r IH]; [destruct (N.eqb k' k); reflexivity|]. cbn [filter fst cache_get].
  destruct (N.eqb_spec a k') as [->|Ha]; cbn [negb cache_get]; [destruct (N.eqb k' k); exact IH|].
  rewrite IH. destruct (N.eqb_spec a k) as [->|]; [|reflexivity]. destruct (N.eqb_spec k' k); [congruence|reflexivity].
Qed.

Lemma cache_get_put k k' v c : cache_get k (cache_put k' v c) = if N.eqb k' k then Some v else cache_get k c.
Proof. unfold cache_put. cbn [cache_get]. rewrite cache_get_filter. destruct (N.eqb k' k); reflexivity. Qed.

Definition coherent (s : cstate) : Prop :=
  forall k v, cache_get k (c_cache s) = Some v -> v = latest k (c_log s).

Lemma coherent_init : coherent (mkC [] []).
Proof. intros k v [=]. Qed.

Lemma coherent_put s k v : coherent s -> v = latest k (c_log s) -> coherent (mkC (c_log s) (cache_put k v (c_cache s))).
Proof.
  intros Hc Hv k0 v0. cbn [c_cache c_log]. rewrite cache_get_put.
  destruct (N.eqb_spec k k0) as [<-|Hne]; [intros [= <-]; exact Hv|apply Hc].
Qed.

Theorem cstep_coherent s o : coherent s -> legal s o -> coherent (fst (cstep s o)).
Proof.
  intros Hc Hk. destruct o as [k v|k v|k|k|k| |keep]; cbn [cstep fst].
  - intros k0 v0. cbn [c_cache c_log]. rewrite cache_get_put, latest_snoc. destruct (N.eqb k k0); [intros [= <-]; reflexivity|apply Hc].
  - exact Hc.
  - destruct (cache_get k (c_cache s)); [exact Hc|]. apply coherent_put; [exact Hc|reflexivity].
  - apply coherent_put; [exact Hc|reflexivity].
  - intros k0 v0. cbn [c_cache c_log]. rewrite cache_get_filter. destruct (N.eqb k k0); [discriminate|apply Hc].
  - intros k0 v0 [=].
  - intros k0 v0 H. cbn [c_cache c_log]. rewrite (Hk keep eq_refl k0). apply Hc. exact H.
Qed.

Lemma cstep_latest s o k : legal s o -> latest k (c_log (fst (cstep s o))) = spec_value k [o] (latest k (c_log s)).
Proof.
  intros Hl. destruct o as [k' v|k' v|k'|k'|k'| |keep]; cbn [cstep fst c_log spec_value]; try reflexivity.
  - apply latest_snoc.
  - destruct (cache_get k' (c_cache s)); reflexivity.
  - apply (Hl keep eq_refl).
Qed.

Theorem get_returns_latest s k : coherent s ->
  snd (cstep s (CGet k)) = Some (latest k (c_log s)) /\ snd (cstep s (CGetScan k)) = Some (latest k (c_log s)).
Proof.
  intros Hc. split; [|reflexivity]. cbn [cstep]. destruct (cache_get k (c_cache s)) as [v|] eqn:E; [|reflexivity].
  rewrite (Hc k v E). reflexivity.
Qed.

Fixpoint run (s : cstate) (ops : list cop) : cstate :=
  match ops with [] => s | o :: r => run (fst (cstep s o)) r end.

Fixpoint all_legal (s : cstate) (ops : list cop) : Prop :=
  match ops with [] => True | o :: r => legal s o /\ all_legal (fst (cstep s o)) r end.

Lemma run_props s ops k : coherent s -> all_legal s ops ->
  coherent (run s ops) /\ latest k (c_log (run s ops)) = spec_value k ops (latest k (c_log s)).
Proof.
  revert s. induction ops as [|o r IH]; intros s Hc Hl; [split; [exact Hc|reflexivity]|].
  destruct Hl as [Hl1 Hl2]. cbn [run].
  destruct (IH (fst (cstep s o)) (cstep_coherent s o Hc Hl1) Hl2) as [IH1 IH2]. split; [exact IH1|].
  rewrite IH2, cstep_latest by exact Hl1. destruct o; reflexivity.
Qed.

(* compaction as the commit log does it (keeps exactly the last message of each key, plus
   anything else it likes) is legal *)
Lemma scan_back_filter_keep k (f : ckey * Z -> bool) rlog :
  (forall e r, rlog = e :: r -> True) ->
  (forall pre e post, rlog = pre ++ e :: post -> fst e = k -> (forall x, In x pre -> fst x <> k) -> f e = true) ->
  scan_back k (filter f rlog) = scan_back k rlog.
Proof.
  intros _. induction rlog as [|[a b] r IH]; intros H; [reflexivity|]. cbn [filter scan_back].
  destruct (N.eqb_spec a k) as [->|Hne].
  - rewrite (H [] (k, b) r eq_refl eq_refl) by (intros x []). cbn [scan_back]. rewrite N.eqb_refl. reflexivity.
  - (* an entry of another key is skipped by the scan, kept or not *)
    rewrite <- IH.
    + destruct (f (a, b)); [|reflexivity]. cbn [scan_back]. destruct (N.eqb_spec a k); [contradiction|reflexivity].
    + intros pre e post -> Hk Hpre. apply (H ((a, b) :: pre) e post eq_refl Hk).
      intros x [<-|Hx]; [exact Hne|apply Hpre; exact Hx].
Qed.

Definition ainv (s : astate) : Prop :=
  coherent (a_c s) /\ forall t k v, pend_get t (a_pending s) = Some (k, v) -> v = latest k (c_log (a_c s)).

Lemma ainv_init : ainv (mkA (mkC [] []) []).
Proof. split; [exact coherent_init|intros t k v [=]]. Qed.

Definition alegal (s : astate) (o : aop) : Prop :=
  forall newlog, o = ACompact newlog -> keeps_latest newlog (c_log (a_c s)).

Lemma pend_get_del t t' p : pend_get t (pend_del t' p) = if Nat.eqb t' t then None else pend_get t p.
Proof.
  unfold pend_del. induction p as [|[a b] r IH]; [destruct (Nat.eqb t' t); reflexivity|]. cbn [filter fst pend_get].
  destruct (Nat.eqb_spec a t') as [->|Ha]; cbn [negb pend_get]; [destruct (Nat.eqb t' t); exact IH|].
  rewrite IH. destruct (Nat.eqb_spec a t) as [->|]; [|reflexivity]. destruct (Nat.eqb_spec t' t); [congruence|reflexivity].
Qed.

Theorem astep_inv s o s' ans : ainv s -> alegal s o -> astep true s o = Some (s', ans) ->
  ainv s' /\ match ans with Some (k, v) => v = latest k (c_log (a_c s')) | None => True end.
Proof.
  intros [Hc Hp] Hl E. destruct o as [k v|k|t k|t|k| |newlog]; cbn [astep andb] in E.
  - destruct (a_pending s) as [|x r] eqn:Ep; cbn [negb] in E; [|discriminate]. injection E as <- <-. split; [|exact I].
    split; cbn [a_c a_pending]; [apply (cstep_coherent (a_c s) (CSet k v)); [exact Hc|intros ? [=]]|intros t k0 v0 [=]].
  - destruct (cache_get k (c_cache (a_c s))) as [v|] eqn:Eg; [|discriminate]. injection E as <- <-.
    split; [split; assumption|exact (Hc k v Eg)].
  - destruct (cache_get k (c_cache (a_c s))); [discriminate|]. destruct (pend_get t (a_pending s)) eqn:Et; [discriminate|].
    injection E as <- <-. split; [|exact I]. split; [exact Hc|]. cbn [a_c a_pending pend_get]. intros t0 k0 v0.
    destruct (Nat.eqb t t0); [intros [= <- <-]; reflexivity|apply Hp].
  - destruct (pend_get t (a_pending s)) as [[k v]|] eqn:Et; [|discriminate]. injection E as <- <-.
    split; [split|]; cbn [a_c a_pending c_log].
    + apply coherent_put; [exact Hc|exact (Hp t k v Et)].
    + intros t0 k0 v0. rewrite pend_get_del. destruct (Nat.eqb t t0); [discriminate|apply Hp].
    + exact (Hp t k v Et).
  - injection E as <- <-. split; [|exact I]. split; [apply (cstep_coherent (a_c s) (CEvict k)); [exact Hc|intros ? [=]]|exact Hp].
  - injection E as <- <-. split; [|exact I]. split; [apply (cstep_coherent (a_c s) CPurge); [exact Hc|intros ? [=]]|exact Hp].
  - injection E as <- <-. pose proof (Hl newlog eq_refl) as Hk. split; [|exact I]. split; cbn [a_c a_pending].
    + apply (cstep_coherent (a_c s) (CCompact newlog)); [exact Hc|]. intros keep [= <-]. exact Hk.
    + intros t k v H. cbn [cstep fst c_log]. rewrite (Hk k). apply Hp in H. exact H.
Qed.

Fixpoint all_alegal (locked : bool) (s : astate) (ops : list aop) : Prop :=
  match ops with
  | [] => True
  | o :: r => alegal s o /\ match astep locked s o with Some (s', _) => all_alegal locked s' r | None => True end
  end.

Lemma astep_latest locked s o s' ans k : alegal s o -> astep locked s o = Some (s', ans) ->
  latest k (c_log (a_c s')) = aspec k [o] (latest k (c_log (a_c s))).
Proof.
  intros Hl E. destruct o as [k0 v0|k0|t k0|t|k0| |newlog]; cbn [astep] in E; cbn [aspec].
  - destruct (locked && _); [discriminate|]. injection E as <- <-. apply latest_snoc.
  - destruct (cache_get k0 _); [|discriminate]. injection E as <- <-. reflexivity.
  - destruct (cache_get k0 _); [discriminate|]. destruct (pend_get t _); [discriminate|]. injection E as <- <-. reflexivity.
  - destruct (pend_get t _) as [[k1 v1]|]; [|discriminate]. injection E as <- <-. reflexivity.
  - injection E as <- <-. reflexivity.
  - injection E as <- <-. reflexivity.
  - injection E as <- <-. apply (Hl newlog eq_refl).
Qed.

Lemma aspec_app k a b acc : aspec k (a ++ b) acc = aspec k b (aspec k a acc).
Proof. revert acc. induction a as [|o r IH]; intros acc; [reflexivity|]. destruct o; cbn [app aspec]; apply IH. Qed.

Theorem arun_correct s ops answers : ainv s -> all_alegal true s ops -> arun true s ops = Some answers ->
  Forall (fun p => fst p = snd p) answers.
Proof.
  revert s answers. induction ops as [|o r IH]; intros s answers Hi Hl E; cbn [arun] in E.
  - injection E as <-. constructor.
  - destruct Hl as [Hl1 Hl2]. destruct (astep true s o) as [[s' ans]|] eqn:Es; [|discriminate].
    destruct (arun true s' r) as [rest|] eqn:Er; [|discriminate]. injection E as <-.
    destruct (astep_inv s o s' ans Hi Hl1 Es) as [Hi' Ha]. pose proof (IH s' rest Hi' Hl2 Er) as Hrest.
    destruct ans as [[k v]|]; [|exact Hrest]. constructor; [exact Ha|exact Hrest].
Qed.
