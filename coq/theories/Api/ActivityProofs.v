(* C18: the repaired dispatcher keeps [Inv] along every schedule and never panics; the order of the stream
   (first_seen_ok, through its Prop form fs_ok) and at-least-once delivery are fields of Inv. The pinned code
   panics or publishes the history again on concrete schedules. *)
From LB Require Import Base.Prelude Api.Activity.
Local Arguments Nat.max : simpl never.
Local Arguments Nat.sub : simpl never.

Lemma is_ev_bound log j : is_ev log j = true -> 1 <= j <= length log.
Proof.
  unfold is_ev, entry_at. destruct j as [|k]; [discriminate|]. destruct (nth_error log k) eqn:E; [|discriminate].
  intros _. assert (k < length log) by (apply nth_error_Some; congruence). lia.
Qed.

Lemma is_ev_snoc log e j :
  is_ev (log ++ [e]) j = is_ev log j || (Nat.eqb j (S (length log)) && match e with ECmd true => true | _ => false end).
Proof.
  unfold is_ev, entry_at. destruct j as [|k]; [reflexivity|]. cbn [Nat.eqb]. revert k.
  induction log as [|a r IH]; intros [|k]; cbn [app nth_error length Nat.eqb andb].
  - destruct e as [[|]| |]; reflexivity.
  - destruct k; reflexivity.
  - apply eq_sym, orb_false_r.
  - apply IH.
Qed.

Lemma is_ev_snoc_old log e j : j <= length log -> is_ev (log ++ [e]) j = is_ev log j.
Proof. intros H. rewrite is_ev_snoc. destruct (Nat.eqb_spec j (S (length log))); [lia|apply orb_false_r]. Qed.

Lemma is_ev_grow log e j : is_ev log j = true -> is_ev (log ++ [e]) j = true.
Proof. intros H. rewrite is_ev_snoc, H. reflexivity. Qed.

Lemma existsb_nat_in j l : existsb (Nat.eqb j) l = true <-> In j l.
Proof.
  rewrite existsb_exists. split; [intros (x & Hx & E); apply Nat.eqb_eq in E; subst; exact Hx|intros H; exists j; split; [exact H|apply Nat.eqb_refl]].
Qed.

(* the shape of all the model's checks: a test of the event entries among the first n *)
Lemma forallb_ev log (p : nat -> bool) n :
  forallb (fun k => negb (is_ev log k) || p k) (seq 1 n) = true <-> forall k, is_ev log k = true -> k <= n -> p k = true.
Proof.
  rewrite forallb_forall. split.
  - intros H k Hk Hle. pose proof (is_ev_bound _ _ Hk) as Hb. specialize (H k ltac:(apply in_seq; lia)). rewrite Hk in H. exact H.
  - intros H k Hk. apply in_seq in Hk. destruct (is_ev log k) eqn:Ek; [|reflexivity]. apply H; [exact Ek|lia].
Qed.

Definition delivered_below (log : list entry) (stream : list nat) (i : nat) : Prop :=
  forall j, is_ev log j = true -> j < i -> In j stream.

Lemma delivered_below_le log stream i i' : i' <= i -> delivered_below log stream i -> delivered_below log stream i'.
Proof. intros Hle H j Hj Hlt. apply H; [exact Hj|lia]. Qed.

Lemma delivered_below_app log stream l i : delivered_below log stream i -> delivered_below log (stream ++ l) i.
Proof. intros H j Hj Hlt. apply in_or_app. left. apply H; assumption. Qed.

Lemma delivered_below_S log stream i :
  delivered_below log stream i -> (is_ev log i = true -> In i stream) -> delivered_below log stream (S i).
Proof. intros H Hi j Hj Hlt. destruct (Nat.eq_dec j i) as [->|Hn]; [apply Hi; exact Hj|apply H; [exact Hj|lia]]. Qed.

Lemma delivered_below_grow log e stream i :
  i <= S (length log) -> delivered_below log stream i -> delivered_below (log ++ [e]) stream i.
Proof. intros Hi H j Hj Hlt. rewrite is_ev_snoc_old in Hj by lia. apply H; assumption. Qed.

Lemma all_delivered_iff log stream : all_delivered log stream = true <-> delivered_below log stream (S (length log)).
Proof.
  unfold all_delivered. rewrite forallb_ev. split; intros H k Hk Hle; apply existsb_nat_in, H; try exact Hk; lia.
Qed.

Lemma records_ok_iff log stream :
  records_ok log stream = true <-> forall j, In (ERec j) log -> is_ev log j = true /\ In j stream.
Proof.
  unfold records_ok. rewrite forallb_forall. split.
  - intros H j Hin. apply H, andb_true_iff in Hin. rewrite existsb_nat_in in Hin. exact Hin.
  - intros H [ev| |j] Hin; try reflexivity. apply andb_true_iff. rewrite existsb_nat_in. apply H. exact Hin.
Qed.

Definition seen_ok (log : list entry) (seen : list nat) (j : nat) : Prop :=
  In j seen \/ forall k, is_ev log k = true -> k < j -> In k seen.

Lemma seen_ok_b log seen j :
  (if existsb (Nat.eqb j) seen then true
   else forallb (fun k => negb (is_ev log k) || existsb (Nat.eqb k) seen) (seq 1 (j - 1))) = true <-> seen_ok log seen j.
Proof.
  unfold seen_ok. rewrite <- existsb_nat_in. destruct (existsb (Nat.eqb j) seen); [split; [left|]; reflexivity|].
  rewrite forallb_ev. split.
  - intros H. right. intros k Hk Hlt. apply existsb_nat_in, H; [exact Hk|lia].
  - intros [[=]|H] k Hk Hle. pose proof (is_ev_bound _ _ Hk) as Hb. apply existsb_nat_in, H; [exact Hk|lia].
Qed.

Fixpoint fs_ok (log : list entry) (seen : list nat) (stream : list nat) : Prop :=
  match stream with
  | [] => True
  | j :: r => is_ev log j = true /\ seen_ok log seen j /\ fs_ok log (j :: seen) r
  end.

Lemma first_seen_ok_iff log stream : forall seen, first_seen_ok log seen stream = true <-> fs_ok log seen stream.
Proof.
  induction stream as [|j r IH]; intros seen; cbn [first_seen_ok fs_ok]; [tauto|].
  rewrite !andb_true_iff, seen_ok_b, IH. tauto.
Qed.

Lemma seen_ok_ext log s1 s2 j : (forall x, In x s1 <-> In x s2) -> seen_ok log s1 j -> seen_ok log s2 j.
Proof. intros H [H1|H1]; [left; apply H; exact H1|right; intros k Hk Hlt; apply H; apply H1; assumption]. Qed.

Lemma fs_ok_ext log stream : forall s1 s2, (forall x, In x s1 <-> In x s2) -> fs_ok log s1 stream -> fs_ok log s2 stream.
Proof.
  induction stream as [|j r IH]; intros s1 s2 H; cbn [fs_ok]; [tauto|]. intros (H1 & H2 & H3). split; [exact H1|]. split; [apply (seen_ok_ext log s1); assumption|].
  apply (IH (j :: s1)); [|exact H3]. intros x. cbn. rewrite H. tauto.
Qed.

Lemma fs_ok_snoc log stream i : forall seen, fs_ok log seen stream -> is_ev log i = true -> seen_ok log (stream ++ seen) i ->
  fs_ok log seen (stream ++ [i]).
Proof.
  induction stream as [|j r IH]; intros seen H Hi Hs; cbn [app fs_ok] in *; [tauto|]. destruct H as (H1 & H2 & H3).
  split; [exact H1|]. split; [exact H2|]. apply IH; [exact H3|exact Hi|]. apply (seen_ok_ext log (j :: r ++ seen)); [|exact Hs].
  intros x. cbn. rewrite !in_app_iff. cbn. tauto.
Qed.

(* the log grows: nothing already checked changes (ids in the stream are indices of the old log) *)
Lemma seen_ok_grow log e seen j : j <= length log -> seen_ok log seen j -> seen_ok (log ++ [e]) seen j.
Proof. intros Hj [H|H]; [left; exact H|right; apply delivered_below_grow; [lia|exact H]]. Qed.

Lemma fs_ok_grow log e stream : forall seen, fs_ok log seen stream -> fs_ok (log ++ [e]) seen stream.
Proof.
  induction stream as [|j r IH]; intros seen; cbn [fs_ok]; [tauto|]. intros (H1 & H2 & H3). pose proof (is_ev_bound _ _ H1) as Hb.
  split; [apply is_ev_grow; exact H1|]. split; [apply seen_ok_grow; [lia|exact H2]|apply IH; exact H3].
Qed.

Lemma fs_ok_in log stream : forall seen j, fs_ok log seen stream -> In j stream -> is_ev log j = true.
Proof.
  induction stream as [|x r IH]; intros seen j H Hin; [destruct Hin|]. cbn [fs_ok] in H. destruct H as (H1 & _ & H3).
  destruct Hin as [<-|Hin]; [exact H1|apply (IH (x :: seen)); assumption].
Qed.

Lemma replay_app log : forall l pos from acc,
  replay_lastpub (log ++ l) pos from acc = replay_lastpub l (pos + length log) from (replay_lastpub log pos from acc).
Proof.
  induction log as [|e r IH]; intros l pos from acc; cbn [app replay_lastpub length]; [rewrite Nat.add_0_r; reflexivity|].
  rewrite IH. f_equal. lia.
Qed.

Lemma replay_above log : forall pos from acc, pos + length log <= S from -> replay_lastpub log pos from acc = acc.
Proof.
  induction log as [|e r IH]; intros pos from acc H; cbn [replay_lastpub length] in *; [reflexivity|].
  rewrite IH by lia. destruct e; try reflexivity. destruct (Nat.ltb_spec from pos); [lia|reflexivity].
Qed.

(* inv_pub is what lastPublished means: every event up to it is in the stream. inv_disp (every event below
   the dispatcher's position is in the stream) is at-least-once delivery. inv_compact: what compaction
   took had been published, so a dispatcher that starts at a_first skips nothing (inv_delivered).
   inv_replay: a restart, which takes the snapshot's value and replays only the PUBLISH_ACTIVITY entries
   above the snapshot's index, finds the lastPublished there is; hence the snapshot must carry it (v = true). *)
Record Inv (s : ast) : Prop := {
  inv_pub : forall j, is_ev (a_log s) j = true -> j <= a_lastpub s -> In j (a_stream s);
  inv_disp : forall i, a_disp s = Some i ->
             a_lastpub s < i /\ i <= S (length (a_log s)) /\
             forall j, is_ev (a_log s) j = true -> j < i -> In j (a_stream s);
  inv_order : fs_ok (a_log s) [] (a_stream s);
  inv_replay : replay_lastpub (a_log s) 1 (a_snap_idx s) (a_snap s) = a_lastpub s;
  inv_snapidx : a_snap_idx s <= length (a_log s);
  inv_lp : a_lastpub s <= length (a_log s);
  inv_compact : forall j, is_ev (a_log s) j = true -> j < a_first s -> j <= a_lastpub s;
  inv_first : 1 <= a_first s <= S (length (a_log s));
  inv_records : forall j, In (ERec j) (a_log s) -> is_ev (a_log s) j = true /\ In j (a_stream s)
}.

Lemma inv_init : Inv init.
Proof.
  constructor; cbn [init a_log a_first a_lastpub a_snap a_snap_idx a_stream a_disp length replay_lastpub fs_ok]; try lia;
    try (intros j Hj; apply is_ev_bound in Hj; cbn [length] in Hj; lia).
  - intros i [=].
  - intros j [].
Qed.

Lemma compact_ok_spec s nf : compact_ok s nf = true ->
  forall j, is_ev (a_log s) j = true -> j < nf -> j <= a_lastpub s.
Proof. unfold compact_ok. rewrite forallb_ev. intros H j Hj Hlt. apply Nat.leb_le, H; [exact Hj|lia]. Qed.

(* the dispatcher's test of the entry it stands at *)
Lemma entry_match {A} log i (a b : A) :
  match entry_at log i with Some (ECmd true) => a | _ => b end = if is_ev log i then a else b.
Proof. unfold is_ev. destruct (entry_at log i) as [[[|]| |j]|]; reflexivity. Qed.

(* what was published or compacted away has been delivered: where a dispatcher may start *)
Lemma inv_delivered s : Inv s -> delivered_below (a_log s) (a_stream s) (Nat.max (S (a_lastpub s)) (a_first s)).
Proof.
  intros HI j Hj Hlt. apply (inv_pub s HI j Hj).
  destruct (Nat.lt_ge_cases j (a_first s)) as [Hf|Hf]; [apply (inv_compact s HI j Hj Hf)|lia].
Qed.

Lemma inv_set_disp s d : Inv s ->
  (forall i, d = Some i -> a_lastpub s < i /\ i <= S (length (a_log s)) /\ delivered_below (a_log s) (a_stream s) i) ->
  Inv (mkAst (a_log s) (a_first s) (a_lastpub s) (a_snap s) (a_snap_idx s) (a_stream s) d).
Proof. intros [] Hd. constructor; cbn [a_log a_first a_lastpub a_snap a_snap_idx a_stream a_disp]; assumption. Qed.

Lemma commit_inv s e : Inv s -> (forall j, e <> ERec j) ->
  Inv (mkAst (a_log s ++ [e]) (a_first s) (a_lastpub s) (a_snap s) (a_snap_idx s) (a_stream s) (a_disp s)).
Proof.
  intros HI Hne. pose proof (inv_lp s HI) as Hlp. pose proof (inv_first s HI) as Hfirst. pose proof (inv_snapidx s HI) as Hsi.
  constructor; cbn [a_log a_first a_lastpub a_snap a_snap_idx a_stream a_disp]; rewrite ?last_length.
  - intros j Hj Hle. rewrite is_ev_snoc_old in Hj by (clear - Hle Hlp; lia). apply (inv_pub s HI); assumption.
  - intros i Hi. destruct (inv_disp s HI i Hi) as (H2 & H3 & H4). split; [exact H2|]. split; [clear - H3; lia|]. apply delivered_below_grow; assumption.
  - apply fs_ok_grow, (inv_order s HI).
  - rewrite replay_app, (inv_replay s HI). destruct e as [ev| |j]; [reflexivity|reflexivity|destruct (Hne j eq_refl)].
  - lia.
  - lia.
  - intros j Hj Hlt. rewrite is_ev_snoc_old in Hj by (clear - Hlt Hfirst; lia). apply (inv_compact s HI); assumption.
  - lia.
  - intros j Hin. apply in_app_or in Hin. destruct Hin as [Hin|[->|[]]]; [|destruct (Hne j eq_refl)].
    destruct (inv_records s HI j Hin) as [H1 H2]. split; [apply is_ev_grow; exact H1|exact H2].
Qed.

Lemma publish_inv s i : Inv s -> a_disp s = Some i -> is_ev (a_log s) i = true ->
  Inv (mkAst (a_log s) (a_first s) (a_lastpub s) (a_snap s) (a_snap_idx s) (a_stream s ++ [i]) (Some i)).
Proof.
  intros HI Hd Hev. destruct (inv_disp s HI i Hd) as (D2 & D3 & D4).
  destruct HI as [Hpub _ Hord Hrep Hsi Hlp Hcomp Hfirst Hrec].
  constructor; cbn [a_log a_first a_lastpub a_snap a_snap_idx a_stream a_disp]; try assumption.
  - intros j Hj Hle. apply in_or_app. left. apply Hpub; assumption.
  - intros i0 [= <-]. split; [exact D2|]. split; [exact D3|]. apply delivered_below_app. exact D4.
  - apply fs_ok_snoc; [exact Hord|exact Hev|right; rewrite app_nil_r; exact D4].
  - intros j Hin. destruct (Hrec j Hin) as [R1 R2]. split; [exact R1|apply in_or_app; left; exact R2].
Qed.

Lemma record_inv s i : Inv s -> a_disp s = Some i -> a_first s <= i <= length (a_log s) -> In i (a_stream s) ->
  Inv (mkAst (a_log s ++ [ERec i]) (a_first s) i (a_snap s) (a_snap_idx s) (a_stream s) (Some (S i))).
Proof.
  intros HI Hd Hi Hin. destruct (inv_disp s HI i Hd) as (_ & _ & D4).
  assert (D5 : delivered_below (a_log s ++ [ERec i]) (a_stream s) (S i))
    by (apply delivered_below_grow; [lia|apply delivered_below_S; [exact D4|intros _; exact Hin]]).
  clear D4. pose proof (inv_first s HI) as Hfirst. pose proof (inv_snapidx s HI) as Hsi.
  constructor; cbn [a_log a_first a_lastpub a_snap a_snap_idx a_stream a_disp]; rewrite ?last_length.
  - intros j Hj Hle. apply D5; [exact Hj|clear - Hle; lia].
  - intros i0 [= <-]. split; [apply Nat.lt_succ_diag_r|]. split; [clear - Hi; lia|exact D5].
  - apply fs_ok_grow, (inv_order s HI).
  - rewrite replay_app, (inv_replay s HI). cbn [replay_lastpub]. destruct (Nat.ltb_spec (a_snap_idx s) (1 + length (a_log s))) as [|Hge]; [reflexivity|clear - Hsi Hge; lia].
  - clear - Hsi. lia.
  - clear - Hi. lia.
  - intros j Hj Hlt. clear - Hlt Hi. lia.
  - clear - Hfirst. lia.
  - intros j Hj. apply in_app_or in Hj. destruct Hj as [Hj|[[= <-]|[]]].
    + destruct (inv_records s HI j Hj) as [R1 R2]. split; [apply is_ev_grow; exact R1|exact R2].
    + split; [apply is_ev_grow, (fs_ok_in _ _ [] i (inv_order s HI) Hin)|exact Hin].
Qed.

Theorem step_inv s x s' : Inv s -> astep true s x = Ok s' -> Inv s'.
Proof.
  intros HI H. pose proof (inv_lp s HI) as Hlp. pose proof (inv_first s HI) as Hfirst.
  destruct x as [e| | |o|t|]; cbn [astep] in H.
  - destruct e as [ev| |j]; [| |discriminate]; injection H as <-; apply commit_inv; try exact HI; discriminate.
  - destruct (a_disp s) eqn:Ed; [discriminate|]. injection H as <-. apply inv_set_disp; [exact HI|].
    intros i [= <-]. split; [clear; lia|]. split; [clear - Hlp Hfirst; lia|apply inv_delivered; exact HI].
  - injection H as <-. apply inv_set_disp; [exact HI|intros i [=]].
  - destruct (a_disp s) as [i|] eqn:Ed; [|discriminate]. destruct (inv_disp s HI i Ed) as (D2 & D3 & D4).
    destruct (Nat.ltb_spec (length (a_log s)) i) as [|D5]; [discriminate|]. destruct (Nat.ltb_spec i (a_first s)) as [Hgone|D1].
    { (* the entry it stands at was compacted: it continues at the first entry there is *)
      injection H as <-. apply inv_set_disp; [exact HI|]. intros i0 [= <-]. split; [clear - D2 Hgone; lia|]. split; [apply Hfirst|].
      apply (delivered_below_le _ _ (Nat.max (S (a_lastpub s)) (a_first s))); [clear - D2 Hgone; lia|apply inv_delivered; exact HI]. }
    rewrite entry_match in H. destruct (is_ev (a_log s) i) eqn:Hev.
    2: { (* no event to publish: it moves on *)
      injection H as <-. apply inv_set_disp; [exact HI|]. intros i0 [= <-]. split; [clear - D2; lia|]. split; [clear - D5; lia|].
      apply delivered_below_S; [exact D4|]. rewrite Hev. discriminate. }
    pose proof (publish_inv s i HI Ed Hev) as HP.
    destruct o; injection H as <-; [exact HI|exact HP|].
    apply (record_inv _ i HP eq_refl); [cbn [a_log a_first]; clear - D1 D5; lia|apply in_elt].
  - destruct (compact_ok s (Nat.max (a_first s) (S (length (a_log s)) - t))) eqn:Ec; [|discriminate]. injection H as <-.
    pose proof (compact_ok_spec _ _ Ec) as C1. clear Ec.
    constructor; cbn [a_log a_first a_lastpub a_snap a_snap_idx a_stream a_disp];
      [apply HI|apply HI|apply HI|apply replay_above; clear - Hlp; lia|clear - Hlp; lia|exact Hlp|exact C1|clear - Hfirst; lia|apply HI].
  - injection H as <-. rewrite (inv_replay s HI). apply inv_set_disp; [exact HI|intros i [=]].
Qed.

Theorem step_no_panic s x : Inv s -> astep true s x <> Panic.
Proof.
  intros _. destruct x as [e| | |o|t|]; cbn [astep]; try discriminate.
  - destruct e; discriminate.
  - destruct (a_disp s); discriminate.
  - destruct (a_disp s) as [i|]; [|discriminate]. destruct (length (a_log s) <? i); [discriminate|]. destruct (i <? a_first s); [discriminate|].
    rewrite entry_match. destruct (is_ev (a_log s) i); [destruct o|]; discriminate.
  - destruct (compact_ok s _); discriminate.
Qed.

Theorem run_inv xs : forall s, Inv s -> arun true s xs <> Panic /\ forall s', arun true s xs = Ok s' -> Inv s'.
Proof.
  induction xs as [|x r IH]; intros s HI; cbn [arun]; [split; [discriminate|intros s' [= <-]; exact HI]|].
  destruct (astep true s x) as [s1| |] eqn:E; [apply IH; apply (step_inv s x s1 HI E)|exfalso; apply (step_no_panic s x HI E)|apply IH; exact HI].
Qed.

Lemma reach_inv xs s : arun true init xs = Ok s -> Inv s.
Proof. apply (run_inv xs init inv_init). Qed.

Theorem activity_order xs s : arun true init xs = Ok s -> first_seen_ok (a_log s) [] (a_stream s) = true.
Proof. intros H. apply first_seen_ok_iff, inv_order, (reach_inv xs), H. Qed.

Theorem activity_at_least_once xs s i : arun true init xs = Ok s -> a_disp s = Some i -> length (a_log s) < i ->
  all_delivered (a_log s) (a_stream s) = true.
Proof.
  intros H Hd Hi. destruct (inv_disp s (reach_inv xs s H) i Hd) as (_ & _ & D).
  apply all_delivered_iff, (delivered_below_le _ _ i); [lia|exact D].
Qed.

(* the pinned code: an operation, its event, a snapshot that compacts the log, a restart -- and the
   dispatcher of the next controller asks for index 1 *)
Theorem pinned_panics : arun false init [XCommit (ECmd true); XStart; XStep PubOk; XStop; XSnapshot 0; XRestart; XStart; XStep PubOk] = Panic.
Proof. vm_compute. reflexivity. Qed.

(* ... or, with the entries still there, publishes the whole history again *)
Theorem pinned_republishes_everything :
  option_map a_stream (match arun false init [XCommit (ECmd true); XCommit (ECmd true); XStart; XStep PubOk; XStep PubOk; XStep PubOk; XStep PubOk; XStop;
                                              XSnapshot 100; XRestart; XStart; XStep PubOk; XStep PubOk] with Ok s => Some s | _ => None end)
  = Some [1; 2; 1; 2] /\
  option_map a_stream (match arun true init [XCommit (ECmd true); XCommit (ECmd true); XStart; XStep PubOk; XStep PubOk; XStep PubOk; XStep PubOk; XStop;
                                             XSnapshot 100; XRestart; XStart; XStep PubOk; XStep PubOk] with Ok s => Some s | _ => None end)
  = Some [1; 2].
Proof. vm_compute. split; reflexivity. Qed.

(* the dispatcher trails behind entries that do not wake it (two barriers after the recorded event),
   the log is compacted with every event published, the next operation wakes it (Properties/C18.v) *)
Definition trailing_schedule : list step :=
  [XCommit (ECmd true); XStart; XStep PubOk; XCommit ENoop; XCommit ENoop; XSnapshot 0; XCommit (ECmd true);
   XStep PubOk; XStep PubOk; XStep PubOk; XStep PubOk].
