(* C13: with the identity test at loop exit at most the subscription held by the slot is active (slot_inv,
   kept by every event), so the late exit of a replaced subscription leaves the current one alone. A stale
   epoch is refused and the slot's epoch never decreases in either variant. *)
From LB Require Import Base.Prelude Api.GroupSlot.

Definition slot_inv (st : gst) : Prop :=
  active st = [] \/ exists x, slot st = Some x /\ active st = [sb_id x].

Lemma remove_id_nil i : remove_id i [] = [].
Proof. reflexivity. Qed.

Lemma remove_id_single i j : remove_id i [j] = if Nat.eqb j i then [] else [j].
Proof. unfold remove_id. cbn. destruct (Nat.eqb j i); reflexivity. Qed.

Lemma slot_inv_remove st i : slot_inv st ->
  remove_id i (active st) = match slot st with Some x => if Nat.eqb (sb_id x) i then [] else active st | None => [] end.
Proof.
  intros [H|(y & Hy & H)]; rewrite H.
  - destruct (slot st) as [x|]; [destruct (Nat.eqb (sb_id x) i)|]; reflexivity.
  - rewrite Hy, remove_id_single. reflexivity.
Qed.

Lemma slot_inv_length st : slot_inv st -> length (active st) <= 1.
Proof. intros [H|(x & _ & H)]; rewrite H; cbn; lia. Qed.

Lemma slot_inv_active st i : slot_inv st -> In i (active st) -> exists x, slot st = Some x /\ sb_id x = i.
Proof. intros [H|(x & Hx & H)]; rewrite H; [intros []|intros [<-|[]]; eauto]. Qed.

Theorem stale_epoch_refused ident st x c e : slot st = Some x -> (e < sb_ep x)%N ->
  gstep ident st (ESub c e) = (st, false).
Proof. intros Hs He. cbn [gstep]. rewrite Hs. destruct (N.ltb_spec e (sb_ep x)); [reflexivity|lia]. Qed.

Lemma gstep_sub st c e : slot_inv st ->
  gstep true st (ESub c e) =
  if match slot st with Some x => (e <? sb_ep x)%N | None => false end then (st, false)
  else (mkGst (Some (mkSub (nxt st) c e)) [nxt st] (subs st ++ [mkSub (nxt st) c e]) (S (nxt st)), true).
Proof.
  intros Hinv. cbn [gstep]. pose proof (slot_inv_remove st) as Hr. destruct (slot st) as [x|] eqn:Es.
  - destruct (e <? sb_ep x)%N; [reflexivity|]. rewrite (Hr _ Hinv), Nat.eqb_refl. reflexivity.
  - destruct Hinv as [H|(y & Hy & _)]; [rewrite H; reflexivity|congruence].
Qed.

Theorem gstep_inv st ev : slot_inv st -> slot_inv (fst (gstep true st ev)).
Proof.
  intros Hinv. destruct ev as [c e|i|i].
  { rewrite (gstep_sub st c e Hinv). destruct (match slot st with Some x => _ | None => _ end); [exact Hinv|right; eexists; split; reflexivity]. }
  (* a close and an exit leave the slot alone unless it holds subscription i, which was the active one *)
  all: unfold slot_inv; cbn [gstep fst active slot]; rewrite (slot_inv_remove _ _ Hinv).
  all: destruct (slot st) as [x|] eqn:Es; [|left; reflexivity].
  all: destruct (Nat.eqb (sb_id x) i); [left; reflexivity|]; rewrite <- Es; exact Hinv.
Qed.

Theorem grun_inv evs : slot_inv (grun true evs).
Proof. apply (fold_left_inv _ slot_inv); [intros st ev; apply gstep_inv|left; reflexivity]. Qed.

(* the replaced loop's clean-up racing the replacement (the schedule the tests never run) *)
Theorem exit_of_other_keeps_current st x i : slot_inv st -> slot st = Some x -> i <> sb_id x ->
  let st' := fst (gstep true st (EExit i)) in
  slot st' = Some x /\ active st' = active st /\
  active (fst (gstep true st (EClose i))) = active st /\ slot (fst (gstep true st (EClose i))) = Some x.
Proof.
  intros Hinv Hs Hi. cbn [gstep fst slot active]. rewrite (slot_inv_remove _ i Hinv), Hs.
  assert (E : Nat.eqb (sb_id x) i = false) by (apply Nat.eqb_neq; congruence). rewrite E. repeat split; reflexivity.
Qed.

Theorem slot_epoch_monotone ident st ev x y : slot st = Some x -> slot (fst (gstep ident st ev)) = Some y ->
  (sb_ep x <= sb_ep y)%N.
Proof.
  intros Hx Hy. destruct ev as [c e|i|i]; cbn [gstep] in Hy; rewrite Hx in Hy.
  - destruct (N.ltb_spec e (sb_ep x)) as [Hlt|Hge]; cbn [fst slot] in Hy.
    + rewrite Hx in Hy. injection Hy as <-. lia.
    + injection Hy as <-. cbn [sb_ep]. exact Hge.
  - cbn [fst slot] in Hy. injection Hy as <-. lia.
  - cbn [fst slot] in Hy. destruct ident.
    + destruct (Nat.eqb (sb_id x) i); [discriminate|]. injection Hy as <-. lia.
    + destruct (cons_of st i) as [c|]; [destruct (N.eqb (sb_cons x) c); [discriminate|]|];
        injection Hy as <-; lia.
Qed.

(* non-vacuity: c1/5 accepted, c2/7 replaces it, c1's loop returns late, c3/6 is refused *)
Example race_example :
  let st := grun true [ESub 1 5; ESub 2 7; EExit 0; ESub 3 6]%N in
  active st = [1] /\ slot st = Some (mkSub 1 2%N 7%N).
Proof. vm_compute. split; reflexivity. Qed.
