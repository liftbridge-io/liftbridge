(* A subscription delivers exactly the requested range (model of the tree with the range fixes),
   in offset order, each record once. *)
From LB Require Import Base.Prelude Log.Model Log.Compact Log.Proofs Log.Refine Log.CompactProofs Log.CommittedProofs Api.Range.
From Coq Require Import Sorted.
Open Scope Z_scope.

Lemma strict_nodup l : StronglySorted Z.lt l -> NoDup l.
Proof.
  induction 1 as [|x t _ IH Hall]; [constructor|]. constructor; [|exact IH].
  intros Hin. rewrite Forall_forall in Hall. specialize (Hall x Hin). lia.
Qed.

Lemma sorted_offsets_strict lo rs : sorted_from lo rs -> StronglySorted Z.lt (map r_off rs).
Proof.
  revert lo. induction rs as [|r t IH]; intros lo H; [constructor|]. destruct H as [_ H].
  cbn [map]. constructor; [exact (IH _ H)|].
  apply Forall_map. eapply Forall_impl; [|exact (sorted_ge _ _ H)]. cbn beta. intros; lia.
Qed.

Lemma take_while_ge_none rs : take_while_ge (-1) rs = rs.
Proof. induction rs as [|r t IH]; [reflexivity|]. cbn [take_while_ge]. cbn. rewrite IH. reflexivity. Qed.

(* the committed reverse reader is the uncommitted one started at min(start, HW) *)
Lemma read_reverse_committed l start : wf l -> l_hw l <> -1 ->
  let eff := if (l_hw l <? start) || (start =? -1) then l_hw l else start in
  eff <= newest l ->
  read_reverse true l start false (-1) = Some (rev (filter (le_off eff) (all_recs l))).
Proof.
  intros Hw Hhw eff Heff.
  assert (E : read_reverse true l start false (-1) = read_reverse true l eff true (-1)).
  { unfold read_reverse. destruct (Z.eqb_spec (l_hw l) (-1)); [contradiction|reflexivity]. }
  rewrite E. pose proof (read_reverse_refines l eff (-1) Hw) as R.
  destruct (read_reverse true l eff true (-1)) as [rs|]; [|lia].
  rewrite R, take_while_ge_none. reflexivity.
Qed.

Definition mono (rv : bool) (rs : list rec) : Prop := StronglySorted (fun a b => if rv then b < a else a < b) (map r_off rs).

Lemma mono_snoc a r : mono true a -> Forall (fun x => r_off r < r_off x) a -> mono true (a ++ [r]).
Proof.
  unfold mono. induction a as [|x t IH]; intros Hm Hf; [repeat constructor|].
  apply StronglySorted_inv in Hm. destruct Hm as [H2 H1]. apply Forall_cons_iff in Hf. destruct Hf as [Hx Ht]. cbn [app map]. constructor; [exact (IH H2 Ht)|].
  rewrite map_app. apply Forall_app. split; [exact H1|]. constructor; [exact Hx|constructor].
Qed.

Lemma mono_rev lo rs : sorted_from lo rs -> mono true (rev rs).
Proof.
  revert lo. induction rs as [|r t IH]; intros lo Hs; [constructor|]. destruct Hs as [_ Hs].
  cbn [rev]. apply mono_snoc; [exact (IH _ Hs)|].
  apply Forall_rev. eapply Forall_impl; [|exact (sorted_ge _ _ Hs)]. cbn beta. intros; lia.
Qed.

Definition within (rv : bool) (stop : Z) (r : rec) : bool := if rv then stop <=? r_off r else r_off r <=? stop.

Lemma deliver_exact rv rs stop at_end : mono rv rs -> Forall (fun r => 0 <= r_off r) rs ->
  fst (deliver rv stop rs at_end) = map r_off (filter (fun r => (stop =? -1) || within rv stop r) rs).
Proof.
  intros Hm Hp. induction rs as [|r t IH]; [reflexivity|].
  apply StronglySorted_inv in Hm. destruct Hm as [H2 H1]. apply Forall_map in H1. apply Forall_cons_iff in Hp. destruct Hp as [Hr Ht]. specialize (IH H2 Ht).
  cbn [deliver filter]. destruct (deliver rv stop t at_end) as [d e]. cbn [fst] in IH.
  destruct (Z.eqb_spec stop (-1)) as [->|Hne]; cbn [negb andb orb] in *.
  - destruct (Z.eqb_spec (r_off r) (-1)); [lia|]. cbn [fst map]. rewrite IH. reflexivity.
  - (* once a record is at or beyond the stop, every later one is beyond it *)
    assert (Hrest : (if rv then r_off r <= stop else stop <= r_off r) -> filter (fun x => within rv stop x) t = []).
    { intros Hb. apply filter_false. eapply Forall_impl; [|exact H1]. unfold within. destruct rv; cbn beta; intros; lia. }
    replace (if rv then r_off r <? stop else stop <? r_off r) with (negb (within rv stop r))
      by (destruct rv; symmetry; apply Z.ltb_antisym).
    destruct (within rv stop r) eqn:W; cbn [negb].
    + destruct (Z.eqb_spec (r_off r) stop) as [Heq|_]; cbn [fst map];
        [rewrite Hrest by (clear - Heq; destruct rv; lia)|rewrite IH]; reflexivity.
    + rewrite Hrest by (clear - W; unfold within in W; destruct rv; lia). reflexivity.
Qed.

Definition in_fwd_range (start hw stop : Z) (r : rec) : bool :=
  in_window start hw r && ((stop =? -1) || (r_off r <=? stop)).

Definition in_rev_range (eff stop : Z) (r : rec) : bool :=
  (r_off r <=? eff) && ((stop =? -1) || (stop <=? r_off r)).

Lemma in_fwd_range_spec start hw stop r : in_fwd_range start hw stop r = true <->
  start <= r_off r <= hw /\ (stop = -1 \/ r_off r <= stop).
Proof. unfold in_fwd_range, in_window. lia. Qed.

Lemma in_rev_range_spec eff stop r : in_rev_range eff stop r = true <->
  r_off r <= eff /\ (stop = -1 \/ stop <= r_off r).
Proof. unfold in_rev_range. lia. Qed.

(* Forward: exactly the committed retained records between the resolved start and stop, in
   offset order -- on any well-formed log (dense, compacted, trimmed, read-only). *)
Theorem subscribe_forward_exact l sp tp stop : wf l -> oldest l <> -1 ->
  (exists r, In r (all_recs l) /\ r_off r = l_hw l) ->
  resolve_stop l tp = Ok stop -> resolve_start l sp <= l_hw l ->
  (stop = -1 \/ resolve_start l sp <= stop) ->
  fst (subscribe l sp tp false) =
  map r_off (filter (in_fwd_range (resolve_start l sp) (l_hw l) stop) (all_recs l)).
Proof.
  intros Hw Hold Hhw Hstop Hstart Hvalid. unfold subscribe. rewrite Hstop.
  replace (negb (stop =? -1) && (stop <? resolve_start l sp)) with false by lia.
  rewrite (read_committed_spec l (resolve_start l sp) Hw Hstart Hold Hhw).
  pose proof (filter_sorted (in_window (resolve_start l sp) (l_hw l)) 0 _ (wf_all_sorted l Hw)) as Hs.
  assert (Hgoal : forall at_end, fst (deliver false stop (filter (in_window (resolve_start l sp) (l_hw l)) (all_recs l)) at_end) =
                  map r_off (filter (in_fwd_range (resolve_start l sp) (l_hw l) stop) (all_recs l))).
  { intros at_end. rewrite deliver_exact by (apply (sorted_offsets_strict 0), Hs || apply sorted_ge, Hs). rewrite filter_and. reflexivity. }
  unfold end_of. destruct (l_ro l && (l_hw l =? newest l)); apply Hgoal.
Qed.

(* Reverse: exactly the committed retained records from min(start, HW) down to the stop offset,
   newest first. *)
Theorem subscribe_reverse_exact l sp tp stop : wf l -> l_hw l <> -1 ->
  resolve_stop l tp = Ok stop -> (stop = -1 \/ stop <= resolve_start l sp) ->
  let eff := if (l_hw l <? resolve_start l sp) || (resolve_start l sp =? -1) then l_hw l else resolve_start l sp in
  eff <= newest l ->
  fst (subscribe l sp tp true) = map r_off (rev (filter (in_rev_range eff stop) (all_recs l))).
Proof.
  intros Hw Hhw Hstop Hvalid eff Heff. unfold subscribe. rewrite Hstop.
  replace (negb (stop =? -1) && (resolve_start l sp <? stop)) with false by lia.
  rewrite (read_reverse_committed l (resolve_start l sp) Hw Hhw Heff). fold eff.
  pose proof (filter_sorted (le_off eff) 0 _ (wf_all_sorted l Hw)) as Hs.
  rewrite deliver_exact by (apply (mono_rev 0), Hs || apply Forall_rev, sorted_ge, Hs).
  rewrite filter_rev, filter_and. reflexivity.
Qed.

Theorem subscribe_empty_range_refused l sp tp stop (rv : bool) : resolve_stop l tp = Ok stop -> stop <> -1 ->
  (if rv then resolve_start l sp < stop else stop < resolve_start l sp) ->
  subscribe l sp tp rv = ([], EInvalid).
Proof.
  intros Hstop Hne Hbad. unfold subscribe. rewrite Hstop.
  replace (negb (stop =? -1) && (if rv then resolve_start l sp <? stop else stop <? resolve_start l sp)) with true
    by (destruct rv; lia).
  reflexivity.
Qed.

(* "In offset order, each once": what a forward subscription delivers is strictly increasing,
   what a reverse one delivers has no repetition, and every delivered offset lies inside the
   requested window. *)
Theorem forward_ordered_once l sp tp stop : wf l -> oldest l <> -1 ->
  (exists r, In r (all_recs l) /\ r_off r = l_hw l) ->
  resolve_stop l tp = Ok stop -> resolve_start l sp <= l_hw l ->
  (stop = -1 \/ resolve_start l sp <= stop) ->
  let out := fst (subscribe l sp tp false) in
  StronglySorted Z.lt out /\ NoDup out /\
  Forall (fun o => resolve_start l sp <= o <= l_hw l /\ (stop = -1 \/ o <= stop)) out.
Proof.
  intros Hw Ho Hhw Hs Hle Hst out. subst out. rewrite (subscribe_forward_exact l sp tp stop) by assumption.
  pose proof (sorted_offsets_strict 0 _ (filter_sorted (in_fwd_range (resolve_start l sp) (l_hw l) stop) 0 _ (wf_all_sorted l Hw))) as Hss.
  split; [exact Hss|]. split; [apply strict_nodup; exact Hss|].
  apply Forall_map, Forall_forall. intros r Hr. apply filter_In in Hr. apply in_fwd_range_spec, Hr.
Qed.

Theorem reverse_once l sp tp stop : wf l -> l_hw l <> -1 ->
  resolve_stop l tp = Ok stop -> (stop = -1 \/ stop <= resolve_start l sp) ->
  let eff := if (l_hw l <? resolve_start l sp) || (resolve_start l sp =? -1) then l_hw l else resolve_start l sp in
  eff <= newest l ->
  let out := fst (subscribe l sp tp true) in
  NoDup out /\ StronglySorted Z.lt (rev out) /\ Forall (fun o => o <= eff /\ (stop = -1 \/ stop <= o)) out.
Proof.
  intros Hw Hh Hs Hst eff Heff out. subst out. rewrite (subscribe_reverse_exact l sp tp stop) by assumption. fold eff.
  pose proof (sorted_offsets_strict 0 _ (filter_sorted (in_rev_range eff stop) 0 _ (wf_all_sorted l Hw))) as Hss.
  rewrite map_rev, rev_involutive.
  split; [apply NoDup_rev, strict_nodup; exact Hss|]. split; [exact Hss|].
  apply Forall_rev, Forall_map, Forall_forall. intros r Hr. apply filter_In in Hr. apply in_rev_range_spec, Hr.
Qed.
